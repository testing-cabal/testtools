(* current_tags: the TagContext stack is related to the two-level specification state by ctx_rel, which every call
   keeps.  What wrapped results observe: an adapter that forwards a stream of its own (ThreadsafeForwardingResult, the
   ExtendedToStreamDecorator pair) is `faithful` if it answers every call by a block that shows, on an idle target,
   what the call shows in the adapter (`simulation`); a Tagger of the reporter adds one more in-test change. *)
From TT Require Import Lib.Base Lib.ListFacts Model.Tags Spec.C17 Corr.C17 Proof.Scan.

Lemma smem_In x s : smem x s = true <-> In x s.
Proof. apply existsb_eqb_In. Qed.

Lemma smem_union x a b : smem x (sunion a b) = smem x a || smem x b.
Proof. unfold smem, sunion. apply existsb_app. Qed.

Lemma smem_diff x a b : smem x (sdiff a b) = smem x a && negb (smem x b).
Proof.
  unfold sdiff. induction a as [|y a IH]; simpl; [reflexivity|].
  destruct (negb (smem y b)) eqn:E; simpl.
  - rewrite IH. destruct (Nat.eqb x y) eqn:Exy; simpl; [|reflexivity].
    apply Nat.eqb_eq in Exy; subst. rewrite E. reflexivity.
  - rewrite IH. destruct (Nat.eqb x y) eqn:Exy; simpl; [|reflexivity].
    apply Nat.eqb_eq in Exy; subst. rewrite E. simpl. destruct (smem y a); reflexivity.
Qed.

Lemma smem_apply1 x s ch : smem x (apply1 s ch) = (smem x s || smem x (fst ch)) && negb (smem x (snd ch)).
Proof. unfold apply1. rewrite smem_diff, smem_union. reflexivity. Qed.

Lemma seteq_refl a : seteq a a.
Proof. intro x; reflexivity. Qed.
Lemma seteq_sym a b : seteq a b -> seteq b a.
Proof. intros H x; symmetry; apply H. Qed.
Lemma seteq_trans a b c : seteq a b -> seteq b c -> seteq a c.
Proof. intros H1 H2 x; rewrite H1; apply H2. Qed.

Lemma apply1_ext a b ch : seteq a b -> seteq (apply1 a ch) (apply1 b ch).
Proof. intros H x. rewrite !smem_apply1, H. reflexivity. Qed.

Lemma apply1_no_change a : seteq (apply1 a no_change) a.
Proof. intro x. rewrite smem_apply1. simpl. destruct (smem x a); reflexivity. Qed.

Definition disjoint (ch : change) : Prop := forall x, smem x (fst ch) && smem x (snd ch) = false.

Lemma disjointb_spec ch : disjointb ch = true <-> disjoint ch.
Proof.
  unfold disjointb, disjoint. rewrite forallb_forall. split.
  - intros H x. destruct (smem x (fst ch)) eqn:E; [|reflexivity].
    apply smem_In in E. apply H in E. simpl. destruct (smem x (snd ch)); [discriminate|reflexivity].
  - intros H x Hx. apply smem_In in Hx. specialize (H x). rewrite Hx in H. simpl in H. rewrite H. reflexivity.
Qed.

Lemma disjoint_no_change : disjoint no_change.
Proof. intro x; reflexivity. Qed.
Lemma disjoint_gone_only t : disjoint ([], t).
Proof. intro x; reflexivity. Qed.

Lemma merge_step B ex ch : disjoint ch ->
  seteq (apply1 (apply1 B ex) ch) (apply1 B (merge_tags ex ch)).
Proof.
  intros D x. specialize (D x). unfold merge_tags. rewrite !smem_apply1. simpl.
  rewrite !smem_diff, !smem_union.
  destruct (smem x (fst ch)), (smem x (snd ch)); try discriminate D;
    destruct (smem x B), (smem x (fst ex)), (smem x (snd ex)); reflexivity.
Qed.

Lemma merge_disjoint ex ch : disjoint ex -> disjoint ch -> disjoint (merge_tags ex ch).
Proof.
  intros D1 D2 x. specialize (D1 x). specialize (D2 x). unfold merge_tags; simpl.
  rewrite !smem_diff, !smem_union.
  destruct (smem x (fst ch)), (smem x (snd ch)); try discriminate D2;
    destruct (smem x (fst ex)), (smem x (snd ex)); try discriminate D1; reflexivity.
Qed.

Lemma fold_apply1_ext chs : forall a b, seteq a b -> seteq (fold_left apply1 chs a) (fold_left apply1 chs b).
Proof.
  induction chs as [|c cs IH]; intros a b H; simpl; [assumption|]. apply IH. apply apply1_ext. assumption.
Qed.

Lemma merge_fold : forall chs B ex, Forall disjoint chs ->
  seteq (fold_left apply1 chs (apply1 B ex)) (apply1 B (fold_left merge_tags chs ex)).
Proof.
  induction chs as [|ch chs IH]; intros B ex HD; simpl; [apply seteq_refl|].
  inversion HD as [|? ? Hd Hds]; subst.
  eapply seteq_trans; [|apply IH; assumption].
  apply fold_apply1_ext. apply merge_step. assumption.
Qed.

(* (eg - n) | g = (eg | g) - n: the two ways of writing _merge_tags differ only on overlapping sets *)
Lemma merge_gone_forms ex ch : disjoint ch ->
  seteq (snd (merge_tags ex ch)) (sunion (sdiff (snd ex) (fst ch)) (snd ch)).
Proof.
  intros D x. specialize (D x). unfold merge_tags; simpl. rewrite smem_diff, !smem_union, smem_diff.
  destruct (smem x (fst ch)), (smem x (snd ch)); try discriminate D; destruct (smem x (snd ex)); reflexivity.
Qed.

Lemma merge_needs_disjoint : exists B ex ch,
  ~ seteq (apply1 (apply1 B ex) ch) (apply1 B (merge_tags ex ch)).
Proof. exists [1], ([],[]), ([1],[1]). intros H. specialize (H 1). vm_compute in H. discriminate. Qed.

Lemma seteqb_spec a b : seteqb a b = true <-> seteq a b.
Proof.
  unfold seteqb, seteq. rewrite forallb_forall. split.
  - intros H x. destruct (in_dec Nat.eq_dec x (a ++ b)) as [Hin|Hn].
    + apply H in Hin. apply (proj1 (bool_eqb_spec _ _)) in Hin. exact Hin.
    + assert (smem x a = false).
      { destruct (smem x a) eqn:E; [|reflexivity]. apply smem_In in E. exfalso; apply Hn, in_or_app; auto. }
      assert (smem x b = false).
      { destruct (smem x b) eqn:E; [|reflexivity]. apply smem_In in E. exfalso; apply Hn, in_or_app; auto. }
      congruence.
  - intros H x _. apply (proj2 (bool_eqb_spec _ _)). apply H.
Qed.

Lemma forall2b_Forall2 {A B} (p : A -> B -> bool) (P : A -> B -> Prop) :
  (forall a b, p a b = true <-> P a b) ->
  forall l m, forall2b p l m = true <-> Forall2 P l m.
Proof.
  intros H l; induction l as [|x r IH]; intros [|y s]; simpl; split; intro E;
    try constructor; try discriminate; try (inversion E; fail).
  - apply andb_true_iff in E as [E1 E2]. apply H; exact E1.
  - apply andb_true_iff in E as [E1 E2]. apply IH; exact E2.
  - inversion E; subst. apply andb_true_iff; split; [apply H | apply IH]; assumption.
Qed.

Lemma list_eqb_Forall2 {A} (eqb : A -> A -> bool) (R : A -> A -> Prop) :
  (forall a b, eqb a b = true <-> R a b) ->
  forall l m, list_eqb eqb l m = true <-> Forall2 R l m.
Proof.
  intros H l m. rewrite <- (forall2b_Forall2 eqb R H). apply eq_iff_eq_true. revert m.
  induction l as [|x r IH]; intros [|y s]; simpl; rewrite ?IH; reflexivity.
Qed.

Lemma lseteqb_spec l m : lseteqb l m = true <-> Forall2 seteq l m.
Proof. apply list_eqb_Forall2. exact seteqb_spec. Qed.

Lemma Forall2_seteq_sym l m : Forall2 seteq l m -> Forall2 seteq m l.
Proof. induction 1; constructor; [apply seteq_sym|]; assumption. Qed.
Lemma Forall2_seteq_trans l m n : Forall2 seteq l m -> Forall2 seteq m n -> Forall2 seteq l n.
Proof.
  intros H; revert n; induction H; intros n H2; inversion H2; subst; constructor;
    [eapply seteq_trans; eassumption | apply IHForall2; assumption].
Qed.

Lemma Forall2_map_same {A B} (R : B -> B -> Prop) (f g : A -> B) ks :
  (forall k, R (f k) (g k)) -> Forall2 R (map f ks) (map g ks).
Proof. intro H. induction ks as [|k ks IH]; simpl; constructor; [apply H|exact IH]. Qed.

Definition in_test (s : sp) : bool := match test_tags s with Some _ => true | None => false end.

Definition ctx_rel (c : tagctx) (s : sp) : Prop :=
  match test_tags s with
  | None => parents c = [] /\ seteq (top c) (run_tags s)
  | Some t => exists p, parents c = [p] /\ seteq p (run_tags s) /\ seteq (top c) t
  end.

Lemma ctx_rel_init : ctx_rel ctx_root sp0.
Proof. split; [reflexivity | apply seteq_refl]. Qed.

Lemma ctx_rel_current c s : ctx_rel c s -> seteq (ctx_current c) (current s).
Proof.
  unfold ctx_rel, current, ctx_current. destruct (test_tags s).
  - intros [p [_ [_ H]]]; exact H.
  - intros [_ H]; exact H.
Qed.

Lemma ctx_rel_step c s op :
  ctx_rel c s -> (op = StartTest -> in_test s = false) -> ctx_rel (istep c op) (sstep [] s op).
Proof.
  intros HR Hn. destruct op as [|ch| | |]; simpl.
  - apply ctx_rel_init.
  - unfold ctx_rel in *. destruct (test_tags s) as [t|] eqn:Et; simpl.
    + destruct HR as [p [Hp [Hr Ht]]]. exists p. repeat split; try assumption. apply apply1_ext; exact Ht.
    + destruct HR as [Hp Hr]. split; [assumption|]. apply apply1_ext; exact Hr.
  - specialize (Hn eq_refl). unfold in_test in Hn. unfold ctx_rel in *.
    destruct (test_tags s) eqn:Et; [discriminate|]. destruct HR as [Hp Hr]. simpl.
    exists (top c). rewrite Hp. repeat split; assumption.
  - exact HR.
  - unfold ctx_rel in *. destruct (test_tags s) as [t|] eqn:Et; simpl.
    + destruct HR as [p [Hp [Hr Ht]]]. unfold ctx_pop. rewrite Hp. simpl. split; [reflexivity|exact Hr].
    + destruct HR as [Hp Hr]. unfold ctx_pop. rewrite Hp. split; assumption.
Qed.

Lemma in_test_sstep tg s op : in_test (sstep tg s op) =
  match op with StartRun | StopTest => false | StartTest => true | _ => in_test s end.
Proof. destruct op; unfold in_test; simpl; try reflexivity. destruct (test_tags s); reflexivity. Qed.

Lemma nn_step s op r : nn_from (in_test s) (op :: r) = true ->
  (op = StartTest -> in_test s = false) /\ nn_from (in_test (sstep [] s op)) r = true.
Proof.
  rewrite in_test_sstep. destruct op; simpl; intro H; try (split; [discriminate|exact H]).
  apply andb_true_iff in H as [H1 H2]. split; [|exact H2]. intros _. destruct (in_test s); [discriminate|reflexivity].
Qed.

Lemma ctx_rel_fold h : forall c s, ctx_rel c s -> nn_from (in_test s) h = true ->
  ctx_rel (fold_left istep h c) (fold_left (sstep []) h s).
Proof.
  induction h as [|op r IH]; intros c s HR Hn; simpl; [exact HR|].
  apply nn_step in Hn as [H1 H2]. apply IH; [apply ctx_rel_step; assumption|exact H2].
Qed.

(* a Tagger that is part of the reporter: its change is one more in-test change *)
Lemma sstep_tagger tg ch h : forall s,
  fold_left (sstep tg) (tagger_tr ch h) s = fold_left (sstep (tg ++ [ch])) h s.
Proof.
  unfold tagger_tr. induction h as [|op r IH]; intro s; simpl; [reflexivity|].
  destruct op; simpl; rewrite IH; try reflexivity.
  rewrite fold_left_app. reflexivity.
Qed.

Lemma nn_tagger ch h : forall b, nn_from b (tagger_tr ch h) = nn_from b h.
Proof.
  unfold tagger_tr. induction h as [|op r IH]; intro b; simpl; [reflexivity|].
  destruct op; simpl; rewrite ?IH; reflexivity.
Qed.

Lemma reporter_refines a : forall h, nn_from false h = true ->
  seteq (reporter_tags a h) (current (fold_left (sstep (chain a)) h sp0)).
Proof.
  assert (own : forall h, nn_from false h = true ->
            seteq (ctx_current (fold_left istep h ctx_root)) (current (fold_left (sstep []) h sp0))).
  { intros h Hn. apply ctx_rel_current. apply ctx_rel_fold; [apply ctx_rel_init|exact Hn]. }
  induction a as [o|l|x IH|ch x IH|x IH|x IH|x IH]; intros h Hn; simpl; try (apply own; exact Hn);
    try (apply IH; exact Hn).
  rewrite <- sstep_tagger. apply IH. rewrite nn_tagger. exact Hn.
Qed.

Lemma nn_firstn h : forall b k, nn_from b h = true -> nn_from b (firstn k h) = true.
Proof.
  induction h as [|op r IH]; intros b k H; destruct k; simpl; try reflexivity.
  destruct op; simpl in *; try (apply IH; exact H).
  apply andb_true_iff in H as [H1 H2]. rewrite H1. simpl. apply IH; exact H2.
Qed.

Theorem current_refines a h : nn_from false h = true ->
  Forall2 seteq (reporter_scan a h) (spec_scan (chain a) h).
Proof.
  intro Hn. unfold reporter_scan, spec_scan. apply Forall2_map_same. intro k.
  unfold spec_after. apply reporter_refines. apply nn_firstn. exact Hn.
Qed.

(* the specification's current tags at each outcome of a stream *)
Fixpoint sobs_from (tg : list change) (s : sp) (h : list call) : list tset :=
  match h with
  | [] => []
  | op :: r => let s' := sstep tg s op in
               match op with Outcome => current s' :: sobs_from tg s' r | _ => sobs_from tg s' r end
  end.

Lemma leaf_refines h : forall c s, ctx_rel c s -> nn_from (in_test s) h = true ->
  Forall2 seteq (seen_from c h) (sobs_from [] s h).
Proof.
  induction h as [|op r IH]; intros c s HR Hn; simpl; [constructor|].
  apply nn_step in Hn as [H1 H2].
  assert (HR' : ctx_rel (istep c op) (sstep [] s op)) by (apply ctx_rel_step; assumption).
  destruct op; try (apply IH; assumption).
  constructor; [apply ctx_rel_current; exact HR' | apply IH; assumption].
Qed.

Lemma wf_nn h : forall it seen, wf_from it seen h = true -> nn_from it h = true.
Proof.
  induction h as [|op r IH]; intros it seen H; simpl in *; [reflexivity|].
  destruct op; try (apply andb_true_iff in H as [H1 H]); rewrite ?H1; exact (IH _ _ H).
Qed.

Definition speq (s s' : sp) : Prop :=
  seteq (run_tags s) (run_tags s') /\
  match test_tags s, test_tags s' with
  | Some t, Some t' => seteq t t'
  | None, None => True
  | _, _ => False
  end.

Lemma sstep_ext tg s s' op : speq s s' -> speq (sstep tg s op) (sstep tg s' op).
Proof.
  destruct s as [r [t|]], s' as [r' [t'|]]; intros [Hr Ht]; try contradiction; simpl in Hr, Ht;
    destruct op; split; simpl; auto using seteq_refl, apply1_ext, fold_apply1_ext.
Qed.

Lemma sobs_from_ext tg h : forall s s', speq s s' -> Forall2 seteq (sobs_from tg s h) (sobs_from tg s' h).
Proof.
  induction h as [|op r IH]; intros s s' H; simpl; [constructor|].
  apply (sstep_ext tg _ _ op) in H. destruct op; try (apply IH; exact H).
  constructor; [|apply IH; exact H]. destruct H as [Hr Ht]. unfold current.
  destruct (test_tags (sstep tg s Outcome)), (test_tags (sstep tg s' Outcome)); try contradiction; assumption.
Qed.

Lemma sobs_from_ext_test h : forall run t t', seteq t t' -> nn_from true h = true ->
  Forall2 seteq (sobs_from [] {| run_tags := run; test_tags := Some t |} h)
                (sobs_from [] {| run_tags := run; test_tags := Some t' |} h).
Proof. intros run t t' H _. apply sobs_from_ext. split; [apply seteq_refl|exact H]. Qed.

Lemma sobs_from_app tg a : forall s b,
  sobs_from tg s (a ++ b) = sobs_from tg s a ++ sobs_from tg (fold_left (sstep tg) a s) b.
Proof. induction a as [|op r IH]; intros s b; [reflexivity|]. destruct op; simpl; rewrite IH; reflexivity. Qed.

(* An adapter that hands on to its target a well-formed stream showing, at every outcome, the tags current in
   the adapter itself. *)
Definition faithful {S} (f : S -> call -> S * list call) (s0 : S) : Prop :=
  forall h, wf_from false false h = true ->
  Forall2 seteq (sobs_from [] sp0 (trans f s0 h)) (sobs_from [] sp0 h)
  /\ wf_from false false (trans f s0 h) = true.

(* on a target outside a test and without run-level tags: well-formed, leaves the target as it was, shows what
   the call shows in the adapter *)
Definition block_ok (out : list call) (si : sp) (op : call) : Prop :=
  (forall rest, wf_from false false (out ++ rest) = wf_from false false rest)
  /\ speq (fold_left (sstep []) out sp0) sp0
  /\ Forall2 seteq (sobs_from [] sp0 out) (sobs_from [] si [op]).

Section simulation.
  Context {S : Type} (f : S -> call -> S * list call) (I : bool -> bool -> S -> sp -> Prop).
  Hypothesis answers : forall it seen s si op r, I it seen s si -> wf_from it seen (op :: r) = true ->
    exists it' seen', wf_from it' seen' r = true /\ I it' seen' (fst (f s op)) (sstep [] si op)
                      /\ block_ok (snd (f s op)) si op.

  Lemma simulation h : forall it seen s si, I it seen s si -> wf_from it seen h = true ->
    Forall2 seteq (sobs_from [] sp0 (trans f s h)) (sobs_from [] si h)
    /\ wf_from false false (trans f s h) = true.
  Proof.
    induction h as [|op r IH]; intros it seen s si HI Hw; [split; [constructor|reflexivity]|].
    destruct (answers _ _ _ _ _ _ HI Hw) as [it' [seen' [Hw' [HI' [B1 [B2 B3]]]]]].
    destruct (IH _ _ _ _ HI' Hw') as [IH1 IH2].
    assert (E : trans f s (op :: r) = snd (f s op) ++ trans f (fst (f s op)) r)
      by (simpl; destruct (f s op); reflexivity).
    rewrite E, B1, sobs_from_app. split; [|exact IH2].
    change (op :: r) with ([op] ++ r). rewrite (sobs_from_app _ [op]).
    apply Forall2_app; [exact B3|]. eapply Forall2_seteq_trans; [apply sobs_from_ext, B2|exact IH1].
  Qed.
End simulation.

(* no block, or the startTestRun that _ensure_started / startTestRun pass on *)
Lemma start_block (started : bool) si op : op <> Outcome -> block_ok (if started then [] else [StartRun]) si op.
Proof.
  intro H. assert (O : sobs_from [] si [op] = []) by (destruct op; try reflexivity; destruct H; reflexivity).
  unfold block_ok. rewrite O. destruct started; repeat split; constructor.
Qed.

Record tfr_inv (it seen : bool) (t : tfr) (si : sp) : Prop := {
  ti_in : t_in t = it;
  ti_si : in_test si = it;
  ti_dg : disjoint (t_glob t);
  ti_dt : disjoint (t_test t);
  ti_run : seteq (run_tags si) (apply1 [] (t_glob t));
  ti_out : it = false -> t_test t = no_change;
  ti_test : forall tt, test_tags si = Some tt -> seen = false ->
            seteq tt (apply1 (apply1 [] (t_glob t)) (t_test t))
}.

Lemma any_tags_false c : any_tags c = false -> c = no_change.
Proof. destruct c as [[|? ?] [|? ?]]; simpl; intro H; try discriminate; reflexivity. Qed.

(* _add_result_with_semaphore: the two buffers are sent only when there is something in them *)
Lemma tfr_block g t si : disjoint g -> disjoint t -> seteq (apply1 (apply1 [] g) t) (current si) ->
  block_ok ([StartTest] ++ (if any_tags g then [Tags g] else []) ++ (if any_tags t then [Tags t] else [])
                        ++ [Outcome; StopTest]) si Outcome.
Proof.
  intros Dg Dt Hc. apply disjointb_spec in Dg, Dt.
  (* Inside the target's open test a buffer ch is sent as tags(ch) or, when empty, not at all.  Either way the
     target's test-level tags go from x to sent ch x, which is apply1 x ch as a set (E). *)
  set (sent := fun (ch : change) (x : tset) => if any_tags ch then apply1 x ch else x).
  assert (E : forall ch x, seteq (sent ch x) (apply1 x ch)).
  { intros ch x. unfold sent. destruct (any_tags ch) eqn:A; [apply seteq_refl|].
    rewrite (any_tags_false ch A). apply seteq_sym, apply1_no_change. }
  assert (W : forall ch seen rest, disjointb ch = true ->
            wf_from true seen ((if any_tags ch then [Tags ch] else []) ++ rest) = wf_from true seen rest).
  { intros ch seen rest D. destruct (any_tags ch); simpl; [rewrite D|]; reflexivity. }
  assert (F : forall ch x rest,
            fold_left (sstep []) ((if any_tags ch then [Tags ch] else []) ++ rest)
                      {| run_tags := []; test_tags := Some x |}
            = fold_left (sstep []) rest {| run_tags := []; test_tags := Some (sent ch x) |}).
  { intros ch x rest. unfold sent. destruct (any_tags ch); reflexivity. }
  assert (O : forall ch x rest,
            sobs_from [] {| run_tags := []; test_tags := Some x |} ((if any_tags ch then [Tags ch] else []) ++ rest)
            = sobs_from [] {| run_tags := []; test_tags := Some (sent ch x) |} rest).
  { intros ch x rest. unfold sent. destruct (any_tags ch); reflexivity. }
  split; [|split].
  - intro rest. simpl. rewrite <- !app_assoc, (W g _ _ Dg), (W t _ _ Dt). reflexivity.
  - simpl. rewrite F, F. simpl. split; [apply seteq_refl|exact Logic.I].
  - simpl. rewrite O, O. simpl. constructor; [|constructor].
    eapply seteq_trans; [|exact Hc]. eapply seteq_trans; [apply E|]. apply apply1_ext, E.
Qed.

Lemma tfr_step_ok it seen t si op r : tfr_inv it seen t si -> wf_from it seen (op :: r) = true ->
  exists it' seen', wf_from it' seen' r = true /\ tfr_inv it' seen' (fst (tfr_step t op)) (sstep [] si op)
                    /\ block_ok (snd (tfr_step t op)) si op.
Proof.
  intros [Iin Isi Idg Idt Irun Iout Itest] Hw. unfold in_test in Isi.
  destruct op as [|ch| | |]; simpl in Hw; try apply andb_true_iff in Hw as [H1 Hw].
  - destruct it; [discriminate|]. exists false, false. split; [exact Hw|]. split.
    + constructor; simpl; auto using disjoint_no_change, seteq_refl; discriminate.
    + apply (start_block false). discriminate.
  - apply disjointb_spec in H1. exists it, seen. split; [exact Hw|].
    split; [|apply (start_block true); discriminate].
    simpl. rewrite Iin. destruct it.
    + (* inside a test: merged into the test-level buffer *)
      destruct (test_tags si) as [tt|] eqn:Et; [|discriminate].
      constructor; simpl; auto using merge_disjoint; try discriminate.
      intros tt' Htt Hs. injection Htt as <-.
      eapply seteq_trans; [apply apply1_ext, Itest; [reflexivity|exact Hs]|]. apply merge_step, H1.
    + (* outside: merged into the run-level buffer *)
      destruct (test_tags si) as [tt|] eqn:Et; [discriminate|].
      constructor; simpl; auto using merge_disjoint; try discriminate.
      eapply seteq_trans; [apply apply1_ext; exact Irun|]. apply merge_step, H1.
  - destruct it; [discriminate|]. exists true, false. split; [exact Hw|].
    split; [|apply (start_block true); discriminate].
    destruct (test_tags si) eqn:Et; [discriminate|].
    constructor; simpl; auto; try discriminate. intros tt Htt _. injection Htt as <-.
    rewrite (Iout eq_refl). eapply seteq_trans; [exact Irun|]. apply seteq_sym, apply1_no_change.
  - (* outcome: startTest, tags(global), tags(test), outcome, stopTest on the target *)
    exists it, it. split; [exact Hw|]. split.
    + constructor; simpl; auto using disjoint_no_change. intros tt Htt ->. rewrite Htt in Isi. discriminate.
    + apply tfr_block; try assumption. unfold current. destruct (test_tags si) as [tt|] eqn:Et.
      * destruct it; [|discriminate]. destruct seen; [discriminate|]. apply seteq_sym, Itest; reflexivity.
      * destruct it; [discriminate|]. rewrite (Iout eq_refl).
        eapply seteq_trans; [apply apply1_no_change|]. apply seteq_sym, Irun.
  - exists false, false. split; [exact Hw|]. split; [|apply (start_block true); discriminate].
    constructor; simpl; auto using disjoint_no_change; discriminate.
Qed.

Lemma tfr_faithful : faithful tfr_step tfr0.
Proof.
  intro h. apply (simulation tfr_step tfr_inv tfr_step_ok).
  constructor; auto using disjoint_no_change, seteq_refl; discriminate.
Qed.

Lemma disjointb_new_only t : disjointb (t, []) = true.
Proof. unfold disjointb. apply forallb_forall. reflexivity. Qed.

Lemma e2s_ctx_step s op : e_ctx (fst (e2s_step s op)) = istep (e_ctx s) op.
Proof. destruct op; reflexivity. Qed.

Lemma e2s_ctx_fold h : forall s, e_ctx (fold_left (fun s op => fst (e2s_step s op)) h s) = fold_left istep h (e_ctx s).
Proof. induction h as [|op r IH]; intro s; simpl; [reflexivity|]. rewrite IH, e2s_ctx_step. reflexivity. Qed.

(* PlaceHolder.run with tags t: the outcome is seen under t, and the run-level tags are empty again afterwards *)
Lemma e2s_block (started : bool) t si : seteq t (current si) ->
  block_ok ((if started then [] else [StartRun]) ++ [Tags (t, []); StartTest; Outcome; StopTest; Tags ([], t)])
           si Outcome.
Proof.
  intro Hc. repeat split.
  - intro rest. destruct started; simpl; rewrite disjointb_new_only; reflexivity.
  - destruct started; intro x; simpl; rewrite !smem_apply1; simpl; destruct (smem x t); reflexivity.
  - destruct started; exact Logic.I.
  - assert (E : seteq (apply1 [] (t, [])) (current si)).
    { eapply seteq_trans; [|exact Hc]. intro x. rewrite smem_apply1. simpl. apply andb_true_r. }
    destruct started; simpl; constructor; try exact E; constructor.
Qed.

Lemma e2s_step_ok it seen s si op r : ctx_rel (e_ctx s) si /\ in_test si = it -> wf_from it seen (op :: r) = true ->
  exists it' seen', wf_from it' seen' r = true
    /\ (ctx_rel (e_ctx (fst (e2s_step s op))) (sstep [] si op) /\ in_test (sstep [] si op) = it')
    /\ block_ok (snd (e2s_step s op)) si op.
Proof.
  intros [HR <-] Hw.
  assert (HR' : ctx_rel (e_ctx (fst (e2s_step s op))) (sstep [] si op)).
  { rewrite e2s_ctx_step. apply ctx_rel_step; [exact HR|]. intros ->. simpl in Hw.
    destruct (in_test si); [discriminate|reflexivity]. }
  rewrite in_test_sstep.
  destruct op as [|ch| | |]; simpl in Hw; try apply andb_true_iff in Hw as [H1 Hw]; do 2 eexists;
    (split; [exact Hw|]); (split; [split; [exact HR'|reflexivity]|]).
  - apply (start_block false). discriminate.
  - apply (start_block true). discriminate.
  - apply (start_block (e_started s)). discriminate.
  - apply e2s_block, ctx_rel_current, HR.
  - apply (start_block true). discriminate.
Qed.

Lemma e2s_faithful : faithful e2s_step e2s0.
Proof.
  intro h. apply (simulation e2s_step (fun it _ s si => ctx_rel (e_ctx s) si /\ in_test si = it)).
  - intros it seen. apply e2s_step_ok.
  - split; [apply ctx_rel_init|reflexivity].
Qed.

Lemma sobs_tagger tg ch h : forall s,
  sobs_from tg s (tagger_tr ch h) = sobs_from (tg ++ [ch]) s h.
Proof.
  unfold tagger_tr. induction h as [|op r IH]; intro s; simpl; [reflexivity|].
  destruct op; simpl; rewrite ?IH; try reflexivity.
  rewrite fold_left_app. reflexivity.
Qed.

Lemma wf_tagger ch h : disjointb ch = true ->
  forall it seen, wf_from it seen (tagger_tr ch h) = wf_from it seen h.
Proof.
  intro D. unfold tagger_tr. induction h as [|op r IH]; intros it seen; simpl; [reflexivity|].
  destruct op; simpl; rewrite ?IH, ?D; reflexivity.
Qed.

Section adapter_ind'.
  Variable P : adapter -> Prop.
  Hypothesis HL : forall o, P (Leaf o).
  Hypothesis HM : forall l, Forall P l -> P (Multi l).
  Hypothesis HD : forall a, P a -> P (Deco a).
  Hypothesis HG : forall ch a, P a -> P (Tagger ch a).
  Hypothesis HO : forall a, P a -> P (E2O a).
  Hypothesis HF : forall a, P a -> P (TFR a).
  Hypothesis HS : forall a, P a -> P (E2S a).
  Fixpoint adapter_ind' (a : adapter) : P a :=
    let fix go (l : list adapter) : Forall P l :=
      match l with [] => Forall_nil _ | x :: r => Forall_cons x (adapter_ind' x) (go r) end in
    match a with
    | Leaf o => HL o
    | Multi l => HM l (go l)
    | Deco x => HD x (adapter_ind' x)
    | Tagger ch x => HG ch x (adapter_ind' x)
    | E2O x => HO x (adapter_ind' x)
    | TFR x => HF x (adapter_ind' x)
    | E2S x => HS x (adapter_ind' x)
    end.
End adapter_ind'.

(* what a leaf must see, as long as no Tagger sits between a forwarder and the leaf *)
Definition leaf_sees (h : list call) (clean : bool) (l : list tset) : Prop :=
  wf_from false false h = true -> clean = true -> Forall2 seteq l (sobs_from [] sp0 h).

Lemma own_seen_ok h : leaf_sees h true (seen_from ctx_root h).
Proof.
  intros Hw _. apply leaf_refines; [apply ctx_rel_init|]. simpl. eapply wf_nn; exact Hw.
Qed.

Lemma faithful_lift {S} (f : S -> call -> S * list call) s0 h cl obs : faithful f s0 ->
  Forall2 (leaf_sees (trans f s0 h)) cl obs -> Forall2 (leaf_sees h) cl obs.
Proof.
  intro F. apply Forall2_impl. intros clean l Hl Hw Hc. destruct (F h Hw) as [H1 H2].
  eapply Forall2_seteq_trans; [apply Hl; assumption|exact H1].
Qed.

Lemma inner_ok a : forall h, Forall2 (leaf_sees h) (clean_inner a) (leaves_obs a h).
Proof.
  induction a as [o|l IH|x IH|ch x IH|x IH|x IH|x IH] using adapter_ind'; intro h; simpl.
  - constructor; [apply own_seen_ok|constructor].
  - induction IH as [|x r Hx _ IHr]; simpl; [constructor|]. apply Forall2_app; [apply Hx|exact IHr].
  - apply IH.
  - apply Forall2_map_l. eapply Forall2_impl; [|apply IH]. intros a b _ _ Hf. discriminate.
  - apply IH.
  - apply (faithful_lift _ _ _ _ _ tfr_faithful), IH.
  - constructor; [apply own_seen_ok|]. apply (faithful_lift _ _ _ _ _ e2s_faithful), IH.
Qed.

(* with the Taggers that are part of the reporter *)
Lemma top_ok a : forall h, forallb disjointb (chain a) = true ->
  Forall2 (fun clean l => wf_from false false h = true -> clean = true ->
                          Forall2 seteq l (sobs_from (chain a) sp0 h))
          (clean_leaves a) (leaves_obs a h).
Proof.
  induction a as [o|l|x IH|ch x IH|x IH|x IH|x IH]; intros h Hd;
    try (exact (inner_ok _ h)); try (apply IH; exact Hd).
  simpl in Hd. rewrite forallb_app in Hd. apply andb_true_iff in Hd as [Hd1 Hd2].
  simpl in Hd2. rewrite andb_true_r in Hd2. simpl.
  eapply Forall2_impl; [|apply (IH (tagger_tr ch h) Hd1)].
  intros clean l Hl Hw Hc. rewrite <- sobs_tagger. apply Hl; [|exact Hc].
  rewrite wf_tagger; assumption.
Qed.

Lemma spec_scan_eq tg h : spec_scan tg h = scan (sstep tg) current sp0 h.
Proof. apply scan_prefixes. Qed.

Lemma at_outcomes_scan tg h : forall s, at_outcomes h (scan (sstep tg) current s h) = sobs_from tg s h.
Proof.
  induction h as [|op r IH]; intro s; [reflexivity|].
  destruct op; simpl; rewrite IH; reflexivity.
Qed.

Lemma at_outcomes_F2 {A} (R : A -> A -> Prop) h : forall l m,
  Forall2 R l m -> Forall2 R (at_outcomes h l) (at_outcomes h m).
Proof.
  induction h as [|op r IH]; intros l m H; [destruct l, m; constructor|].
  inversion H; subst; [destruct op; constructor|].
  destruct op; simpl; try (apply IH; assumption). constructor; [assumption|apply IH; assumption].
Qed.

Theorem observed_ok a h :
  wf_from false false h = true -> forallb disjointb (chain a) = true ->
  Forall2 (fun clean l => clean = true -> Forall2 seteq l (at_outcomes h (reporter_scan a h)))
          (clean_leaves a) (leaves_obs a h).
Proof.
  intros Hw Hd. eapply Forall2_impl; [|apply (top_ok a h Hd)].
  intros clean l Hl Hc. simpl in Hl.
  eapply Forall2_seteq_trans; [apply Hl; assumption|].
  rewrite <- at_outcomes_scan, <- spec_scan_eq.
  apply at_outcomes_F2. apply Forall2_seteq_sym. apply current_refines. eapply wf_nn; exact Hw.
Qed.

Lemma leaves_okb_iff (cl : list bool) (obs : list (list tset)) (want : list tset) :
  forall2b (fun clean l => implb clean (lseteqb l want)) cl obs = true
  <-> Forall2 (fun clean l => clean = true -> Forall2 seteq l want) cl obs.
Proof.
  apply forall2b_Forall2. intros c l. destruct c; simpl.
  - split; [intros H _; apply lseteqb_spec, H|intro H; apply lseteqb_spec, H; reflexivity].
  - split; [discriminate|reflexivity].
Qed.

Theorem model_meets_spec : forall i, spec_okb i (model i) = true.
Proof.
  intros [a h]. unfold spec_okb, current_okb, observed_okb, wf_obs, model; simpl.
  apply andb_true_iff; split.
  - unfold wf_cur; simpl. destruct (nn_from false h) eqn:En; [|reflexivity].
    simpl. destruct (disj_hist h); [|reflexivity]. destruct (forallb disjointb (chain a)); [|reflexivity]. simpl.
    apply lseteqb_spec. apply current_refines. exact En.
  - destruct (wf_from false false h && forallb disjointb (chain a)) eqn:Ew; [|reflexivity]. simpl.
    apply andb_true_iff in Ew as [Hw Hd].
    apply leaves_okb_iff, observed_ok; assumption.
Qed.

