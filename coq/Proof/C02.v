(* C02 - proofs: the execution log is the declared order, every registered cleanup runs exactly
   once, nothing is left, patched attributes are restored, a second run repeats the first. *)
From Coq Require Import Permutation.
From TT Require Import Lib.EqbFacts Lib.Base Lib.ListFacts Gen.Handlers Model.Run Spec.Run Spec.C02 Corr.C02 Proof.RunCore Proof.RunExtra
  Proof.RunTable Proof.RunVerdict.

Lemma lev_eqb_spec a b : lev_eqb a b = true <-> a = b.
Proof. destruct a, b; simpl; eqb_components ltac:(apply Nat.eqb_eq). Qed.
Lemma lsh_eqb_spec a b : lsh_eqb a b = true <-> a = b.
Proof. destruct a, b; simpl; eqb_components ltac:(apply Nat.eqb_eq). Qed.
Lemma nn_eqb_spec a b : nn_eqb a b = true <-> a = b.
Proof. apply pair_eqb_spec; intros; apply Nat.eqb_eq. Qed.

Lemma runobs_eqb_spec a b :
  runobs_eqb a b = true <-> (r_log a, r_left a, normal (r_attrs a)) = (r_log b, r_left b, normal (r_attrs b)).
Proof.
  unfold runobs_eqb. etransitivity.
  - repeat apply andb_iff; [apply list_eqb_spec, lev_eqb_spec | apply Nat.eqb_eq | apply list_eqb_spec, nn_eqb_spec].
  - split; [intros [[-> ->] ->]; reflexivity | intros H; injection H; auto].
Qed.

Lemma same_attrs_refl a : same_attrs a a = true.
Proof. unfold same_attrs. apply forallb_forall. intros k _. apply option_eqb_spec; [apply Nat.eqb_eq | reflexivity]. Qed.

Lemma same_attrs_sound a b : same_attrs a b = true -> forall k, aget k a = aget k b.
Proof.
  unfold same_attrs. rewrite forallb_forall. intros H k.
  destruct (in_dec Nat.eq_dec k (map fst a ++ map fst b)) as [I|N].
  - specialize (H k I). apply (option_eqb_spec Nat.eqb Nat.eqb_eq) in H. exact H.
  - assert (G : forall l, ~ In k (map fst l) -> aget k l = None).
    { induction l as [|[j v] r IH]; simpl; [reflexivity|]. intros Hn.
      destruct (Nat.eqb k j) eqn:E; [apply Nat.eqb_eq in E; subst; tauto | apply IH; tauto]. }
    rewrite (G a), (G b); [reflexivity | |]; intro; apply N; apply in_or_app; tauto.
Qed.

Lemma observe_spec p s0 :
  exists r s,
    observe p s0 = (r, s)
    /\ map shape (r_log r) = expected_log p
    /\ r_left r = 0
    /\ r_attrs r = attrs s0
    /\ r_outs r = [fst (verdict_from p (uh s0) (force s0))]
    /\ attrs s = attrs s0 /\ stack s = []
    /\ force s = force s0 || (negb (skipped p) && forced p)
    /\ uh s = rev (inserted p) ++ uh s0.
Proof.
  unfold observe. destruct (run_from_verdict p (set_tr [] (set_log [] s0))) as (s & d & R & C & L & K & _ & U & F & A).
  rewrite R. eexists. exists s. split; [reflexivity|]. cbn [r_log r_left r_attrs r_outs].
  cbn [log tr force attrs uh set_tr set_log calls filter app map] in *.
  split; [exact L|]. split; [rewrite K; reflexivity|]. split; [exact A|].
  split; [|split; [exact A | split; [exact K | split; [exact F | exact U]]]].
  unfold outs_of. rewrite <- flat_map_calls, C by reflexivity. reflexivity.
Qed.

(* force_failure and the inserted handlers are not reset; what set them in the first run sets them again:
   the handlers in front are found first either way *)
Lemma uclaim_dup a b e : uclaim (a ++ a ++ b) e = uclaim (a ++ b) e.
Proof. unfold uclaim. rewrite !find_app. destruct (find _ a); reflexivity. Qed.
Lemma decide_u_dup a b X : decide_u (a ++ a ++ b) X = decide_u (a ++ b) X.
Proof.
  unfold decide_u, reported_for, uclaimed, uoutcome. destruct X as [|x r]; [reflexivity|].
  rewrite (find_ext_in _ (fun e => negb match uclaim (a ++ b) e with Some _ => true | None => isinstance e CException end))
    by (intros e _; now rewrite uclaim_dup).
  destruct (find _ (x :: r)); now rewrite uclaim_dup.
Qed.
Lemma verdict_rerun p u0 f0 :
  verdict_from p (rev (inserted p) ++ u0) (f0 || (negb (skipped p) && forced p)) = verdict_from p u0 f0.
Proof.
  unfold verdict_from, collected_run, collected. destruct (skipped p); [reflexivity|]. cbn [negb andb].
  now rewrite decide_u_dup, <- orb_assoc, orb_diag.
Qed.

Lemma model_runs i :
  exists r1 r2, model i = {| o_first := r1; o_second := r2 |} /\ r_outs r2 = r_outs r1
    /\ forall r, r = r1 \/ r = r2 ->
       map shape (r_log r) = expected_log (i_prog i) /\ r_left r = 0 /\ r_attrs r = i_attrs i.
Proof.
  unfold model.
  destruct (observe_spec (i_prog i) (init (i_prog i) (i_attrs i))) as (r1 & s1 & -> & L1 & K1 & A1 & U1 & A1' & _ & F1 & H1).
  destruct (observe_spec (i_prog i) s1) as (r2 & s2 & -> & L2 & K2 & A2 & U2 & _).
  cbn [attrs force uh init] in *. exists r1, r2. split; [reflexivity|]. split.
  - now rewrite U1, U2, F1, H1, verdict_rerun.
  - intros r [->| ->]; repeat split; congruence.
Qed.

Lemma model_meets_spec i : spec_okb i (model i) = true.
Proof.
  destruct (model_runs i) as (r1 & r2 & -> & U & H).
  destruct (H r1 (or_introl eq_refl)) as (L1 & K1 & A1). destruct (H r2 (or_intror eq_refl)) as (L2 & K2 & A2).
  unfold spec_okb, run_okb. cbn [o_first o_second]. rewrite L1, L2, K1, K2, A1, A2, U.
  now rewrite (eqb_spec_refl _ (list_eqb_spec lsh_eqb lsh_eqb_spec)), same_attrs_refl,
    (eqb_spec_refl _ (list_eqb_spec outcome_eqb outcome_eqb_spec)).
Qed.

(* everything the statements that get executed - directly or inside a cleanup that runs - hand to
   addCleanup, in program order: functions, the undo of each patch(), and for a fixture whose
   set-up succeeded its cleanUp and then the gathering of its details *)
Fixpoint reg_act (a : act) : list entry :=
  match a with
  | ACleanup t body =>
      EUser t body ::
      (fix go (l : list act) : list entry :=
         match l with
         | [] => []
         | x :: r => reg_act x ++ match act_raise x with Some _ => [] | None => go r end
         end) body
  | APatch a _ => [ERestore a]
  | AFixture fx => match fixture_raise fx with Some _ => [] | None => [EFx fx; EGather fx] end
  | _ => []
  end.
Fixpoint reg_acts (l : list act) : list entry :=
  match l with
  | [] => []
  | x :: r => reg_act x ++ match act_raise x with Some _ => [] | None => reg_acts r end
  end.
Definition registered (p : prog) : list entry :=
  reg_acts (snd (p_setup p))
  ++ (if setup_returns p then reg_acts (snd (p_body p)) ++ reg_acts (snd (p_teardown p)) else []).

Lemma raising_registers_nothing x e : act_raise x = Some e -> reg_act x = [].
Proof.
  destruct x; simpl; try discriminate; try reflexivity. intros H. now rewrite H.
Qed.

Lemma pending_perm l : Permutation (pending l) (reg_acts l).
Proof.
  apply (acts_nest_ind (fun a => Permutation (act_entries a) (reg_act a)) (fun l => Permutation (pending l) (reg_acts l))).
  - constructor.
  - intros x r Hx Hr. cbn [pending reg_acts]. destruct (act_raise x) as [e|] eqn:E.
    + rewrite (raising_registers_nothing x e E). constructor.
    + eapply perm_trans; [apply Permutation_app_comm|]. now apply Permutation_app.
  - intros t body H. change (Permutation (EUser t body :: pending body) (EUser t body :: reg_acts body)). now constructor.
  - intros a Ha. destruct a; try (exfalso; eapply Ha; reflexivity); simpl; try apply Permutation_refl.
    destruct (fixture_raise fx); [constructor | apply perm_swap].
Qed.

Theorem once p : Permutation (cleanup_entries p) (registered p).
Proof.
  unfold cleanup_entries, registered. destruct (setup_returns p).
  - eapply perm_trans; [apply Permutation_app_comm|].
    eapply perm_trans; [apply Permutation_app_tail, Permutation_app_comm|].
    rewrite <- app_assoc.
    apply Permutation_app; [apply pending_perm|].
    apply Permutation_app; apply pending_perm.
  - rewrite app_nil_r. apply pending_perm.
Qed.

Lemma acts_raise_app a b : acts_raise (a ++ b) = match acts_raise a with Some e => Some e | None => acts_raise b end.
Proof. induction a as [|x r IH]; simpl; [reflexivity|]. destruct (act_raise x); [reflexivity | exact IH]. Qed.

(* later registrations of one body run first *)
Lemma pending_app l1 l2 : acts_raise l1 = None -> pending (l1 ++ l2) = pending l2 ++ pending l1.
Proof.
  induction l1 as [|x r IH]; simpl; intros H; [now rewrite app_nil_r|].
  destruct (act_raise x); [discriminate|]. rewrite (IH H), app_assoc. reflexivity.
Qed.
(* ... and what a statement registers runs after everything registered later in the body, at once followed by
   what it registers itself, before everything registered earlier *)
Lemma pending_mid l1 a l2 :
  acts_raise (l1 ++ [a]) = None -> pending (l1 ++ a :: l2) = pending l2 ++ act_entries a ++ pending l1.
Proof.
  intros H. rewrite acts_raise_app in H. destruct (acts_raise l1) eqn:H1; [discriminate|].
  cbn [acts_raise] in H. destruct (act_raise a) eqn:Ha; [discriminate|].
  rewrite (pending_app _ _ H1). cbn [pending]. now rewrite Ha, <- app_assoc.
Qed.

Theorem stack_empty p s0 : stack (snd (observe p s0)) = [] /\ r_left (fst (observe p s0)) = 0.
Proof. destruct (observe_spec p s0) as (r & s & O & L & K & A & _ & _ & St & _). rewrite O. split; assumption. Qed.

Theorem patch_restored p s0 k : aget k (r_attrs (fst (observe p s0))) = aget k (attrs s0).
Proof. destruct (observe_spec p s0) as (r & s & O & L & K & A & _). rewrite O. cbn [fst]. now rewrite A. Qed.

(* the namespaces are literally what they were: no target keeps a value it only inherited or did not
   have (no shadow is left behind), and getattr finds for every target what it found before *)
Theorem namespaces_restored p s0 :
  attrs (snd (observe p s0)) = attrs s0
  /\ forall k, getattr k (attrs (snd (observe p s0))) = getattr k (attrs s0).
Proof.
  destruct (observe_spec p s0) as (r & s & O & L & K & A & _ & A' & _). rewrite O. cbn [snd].
  split; [exact A' | intros k; now rewrite A'].
Qed.

Theorem rerun i :
  let o := model i in
  map shape (r_log (o_second o)) = map shape (r_log (o_first o))
  /\ r_outs (o_second o) = r_outs (o_first o)
  /\ r_attrs (o_second o) = i_attrs i /\ r_attrs (o_first o) = i_attrs i.
Proof.
  destruct (model_runs i) as (r1 & r2 & -> & U & H).
  destruct (H r1 (or_introl eq_refl)) as (L1 & _ & A1). destruct (H r2 (or_intror eq_refl)) as (L2 & _ & A2).
  cbn [o_first o_second]. repeat split; congruence.
Qed.
