(* C07 - a test of assertThat / expectThat / assert_that statements is a fold over the statements it
   executes; what the model then observes meets the statement; the executable statement implies the
   readable one. *)
From Coq Require Import String Ascii.
From TT Require Import Lib.Base Lib.EqbFacts Lib.Count Model.TextRepr Model.Assertions Spec.C07 Corr.C07
     Proof.C07Repr Proof.C07Names.
Local Open Scope string_scope.

(* what is executed, hence attached, is a subsequence of what the test contains *)
Inductive sub {A} : list A -> list A -> Prop :=
| sub_nil : sub [] []
| sub_skip x l' l : sub l' l -> sub l' (x :: l)
| sub_keep x l' l : sub l' l -> sub (x :: l') (x :: l).

Lemma sub_refl {A} (l : list A) : sub l l.
Proof. induction l; constructor; assumption. Qed.
Lemma sub_nil_l {A} (l : list A) : sub [] l.
Proof. induction l; constructor; assumption. Qed.
Lemma sub_app {A} (a' a b' b : list A) : sub a' a -> sub b' b -> sub (a' ++ b')%list (a ++ b)%list.
Proof. induction 1; simpl; intro Hb; [exact Hb|apply sub_skip; auto|apply sub_keep; auto]. Qed.
Lemma sub_in {A} (l' l : list A) x : sub l' l -> In x l' -> In x l.
Proof.
  induction 1; simpl; intro Hb.
  - exact Hb.
  - right. auto.
  - destruct Hb; [left; assumption|right; auto].
Qed.
Lemma sub_map {A B} (f : A -> B) l' l : sub l' l -> sub (map f l') (map f l).
Proof. induction 1; simpl; [apply sub_nil|apply sub_skip; assumption|apply sub_keep; assumption]. Qed.
Lemma sub_flat_map {A B} (f g : A -> list B) l' l :
  (forall x, sub (f x) (g x)) -> sub l' l -> sub (flat_map f l') (flat_map g l).
Proof.
  intro H. induction 1; simpl; [apply sub_nil| |].
  - apply (sub_app [] (g x)); [apply sub_nil_l|assumption].
  - apply sub_app; [apply H|assumption].
Qed.
Lemma sub_filter {A} (f : A -> bool) l : sub (filter f l) l.
Proof. induction l as [|x l IH]; simpl; [constructor|]. destruct (f x); constructor; exact IH. Qed.
Lemma sub_nodup {A} (l' l : list A) : sub l' l -> NoDup l -> NoDup l'.
Proof.
  induction 1; intro ND; [constructor|inversion ND; auto|].
  inversion ND; subst. constructor; [|auto]. intro Hin. apply H2. eapply sub_in; eassumption.
Qed.

Definition requests_of_step (s : step) : list detail :=
  match s_kind s, s_mis s with
  | AssertThat, Some ds => ds
  | ExpectThat, Some ds => (ds ++ [("Failed expectation", 0)])%list
  | _, _ => []
  end.
Fixpoint exec (steps : list step) : list step :=
  match steps with
  | [] => []
  | s :: r => if raises_step s then [s] else s :: exec r
  end.
(* a MismatchError is an AssertionError *)
Definition exc_of_step (s : step) : exck := match s_kind s with Raise e => e | _ => XFail end.
Fixpoint exc_of (steps : list step) : option exck :=
  match steps with
  | [] => None
  | s :: r => if raises_step s then Some (exc_of_step s) else exc_of r
  end.
Definition excs_of (cs : list (list step)) : list exck := flat_map (fun c => opt_list (exc_of c)) cs.
Definition expfail (s : step) : bool := is_expect (s_kind s) && is_some (s_mis s).

(* the statement's [executed] (a prefix by length) is [exec] *)
Lemma executed_all_exec p : executed_all p = flat_map exec (phases p).
Proof.
  unfold executed_all, executed. apply flat_map_ext. intro steps.
  induction steps as [|s r IH]; simpl; [reflexivity|].
  destruct (raises_step s); simpl; [reflexivity|]. rewrite IH. reflexivity.
Qed.

Lemma exec_sub steps : sub (exec steps) steps.
Proof.
  induction steps as [|s r IH]; simpl; [constructor|].
  destruct (raises_step s); [constructor; apply sub_nil_l|constructor; exact IH].
Qed.

Lemma exec_concat_sub cs : sub (flat_map exec cs) (List.concat cs).
Proof. induction cs as [|c r IH]; simpl; [constructor|]. apply sub_app; [apply exec_sub|exact IH]. Qed.

Lemma phases_sub p : sub (flat_map exec (phases p)) (all_steps p).
Proof.
  unfold phases, all_steps. destruct (setup_raises p); simpl.
  - apply sub_app; [apply exec_sub|]. apply (sub_app [] (p_body p)); [apply sub_nil_l|].
    apply (sub_app [] (p_teardown p)); [apply sub_nil_l|]. apply exec_concat_sub.
  - repeat (apply sub_app; [apply exec_sub|]). apply exec_concat_sub.
Qed.

Lemma exc_of_is_some steps : is_some (exc_of steps) = existsb raises_step steps.
Proof.
  induction steps as [|s r IH]; simpl; [reflexivity|]. destruct (raises_step s); simpl; [reflexivity|exact IH].
Qed.

Lemma excs_of_filter cs : excs_of cs = map exc_of_step (filter raises_step (flat_map exec cs)).
Proof.
  assert (E : forall c, opt_list (exc_of c) = map exc_of_step (filter raises_step (exec c))).
  { induction c as [|s r IH]; simpl; [reflexivity|].
    destruct (raises_step s) eqn:R; simpl; rewrite R; [reflexivity|exact IH]. }
  induction cs as [|c r IH]; simpl; [reflexivity|]. rewrite filter_app, map_app, <- IH, <- E. reflexivity.
Qed.

Lemma final_outcome_snoc l x : final_outcome (l ++ [x]) = outcome_of x.
Proof. unfold final_outcome. rewrite fold_left_app. reflexivity. Qed.

Definition step_state (st : tstate) (s : step) : tstate :=
  match s_kind s with
  | AssertThat => fst (match_helper st (s_mis s))
  | ExpectThat =>
      let '(st', err) := match_helper st (s_mis s) in
      if err then {| t_details := add_unique (t_details st') ("Failed expectation", 0); t_forced := true |} else st'
  | _ => st
  end.

Lemma run_body_fold steps : forall st,
  run_body st steps = (fold_left step_state (exec steps) st, exp_raised steps, exc_of steps).
Proof.
  induction steps as [|[k mis] r IH]; intro st; [reflexivity|].
  destruct k, mis as [ds|]; simpl; rewrite ?IH; reflexivity.
Qed.

Lemma run_cleanups_fold cs : forall st,
  run_cleanups st cs = (fold_left step_state (flat_map exec cs) st, map exp_raised cs, excs_of cs).
Proof.
  induction cs as [|c r IH]; intro st; simpl; [reflexivity|].
  rewrite run_body_fold, IH, fold_left_app. reflexivity.
Qed.

(* the base method leaves the details and force_failure alone, so wherever the upcall stands the function is
   its statement list *)
Lemma exec_app a b :
  match exc_of a with
  | Some _ => exec (a ++ b) = exec a /\ exp_raised (a ++ b) = exp_raised a /\ exc_of (a ++ b) = exc_of a
  | None => exec (a ++ b) = (exec a ++ exec b)%list /\ exp_raised (a ++ b) = (exp_raised a ++ exp_raised b)%list
            /\ exc_of (a ++ b) = exc_of b
  end.
Proof.
  induction a as [|s r IH]; simpl; [auto|]. destruct (raises_step s); [auto|].
  destruct (exc_of r); destruct IH as [-> [-> ->]]; auto.
Qed.

Lemma run_fn_body base st steps up : (forall x, base x = x) -> run_fn base st steps up = run_body st steps.
Proof.
  intro B. pose proof (exec_app (firstn up steps) (skipn up steps)) as E. rewrite firstn_skipn in E.
  unfold run_fn. rewrite (run_body_fold steps), run_body_fold.
  destruct (exc_of (firstn up steps)); destruct E as [-> [-> ->]]; [reflexivity|].
  rewrite B, run_body_fold, fold_left_app. reflexivity.
Qed.

Theorem upcall_anywhere p u v :
  run_test {| p_pre := p_pre p; p_setup := p_setup p; p_setup_up := u; p_body := p_body p;
              p_teardown := p_teardown p; p_teardown_up := v; p_cleanups := p_cleanups p |} = run_test p.
Proof.
  unfold run_test. simpl. rewrite !(run_fn_body base_setup) by reflexivity.
  destruct (run_body _ (p_setup p)) as [[st1 l0] [x|]]; [reflexivity|].
  destruct (run_body st1 (p_body p)) as [[st2 l1] e1]. rewrite !(run_fn_body base_teardown) by reflexivity. reflexivity.
Qed.

Lemma run_test_fold p :
  let st := fold_left step_state (flat_map exec (phases p)) {| t_details := Some (p_pre p); t_forced := false |} in
  run_test p = {| r_raised := map exp_raised (phases p); r_after_ran := true;
                  r_outcome := final_outcome (excs_of (phases p) ++ (if t_forced st then [XFail] else []))%list;
                  r_details := t_details st |}.
Proof.
  unfold run_test, phases, setup_raises. rewrite run_fn_body, run_body_fold by reflexivity.
  rewrite <- exc_of_is_some. destruct (exc_of (p_setup p)) as [x|] eqn:X; simpl; rewrite ?X.
  - rewrite run_cleanups_fold, fold_left_app. reflexivity.
  - rewrite run_body_fold, run_fn_body, run_body_fold, run_cleanups_fold by reflexivity.
    rewrite !fold_left_app, <- !app_assoc. reflexivity.
Qed.

Lemma steps_forced ss : forall st, t_forced (fold_left step_state ss st) = t_forced st || existsb expfail ss.
Proof.
  induction ss as [|[k mis] r IH]; intro st; simpl; [symmetry; apply orb_false_r|].
  rewrite IH, orb_assoc. f_equal. unfold step_state, expfail. simpl.
  destruct k, mis; simpl; rewrite ?orb_false_r, ?orb_true_r; reflexivity.
Qed.

(* the forced failure is raised after everything else *)
Definition model_outcome (p : prog) : outcome :=
  final_outcome (excs_of (phases p) ++ (if expect_failed p then [XFail] else []))%list.

Lemma run_test_outcome p :
  r_outcome (run_test p) = model_outcome p /\ r_raised (run_test p) = map exp_raised (phases p).
Proof.
  rewrite (run_test_fold p). simpl. rewrite steps_forced. unfold model_outcome, expect_failed.
  rewrite executed_all_exec. split; reflexivity.
Qed.

Lemma model_outcome_ok p : outcome_okb p (model_outcome p) = true.
Proof.
  unfold outcome_okb, model_outcome. destruct (expect_failed p) eqn:EF; [rewrite final_outcome_snoc; reflexivity|].
  rewrite app_nil_r, excs_of_filter. unfold any_raise, explicit_raise. rewrite executed_all_exec.
  induction (flat_map exec (phases p)) as [|s ss IH] using rev_ind; [reflexivity|].
  rewrite filter_app, map_app, !existsb_app. simpl. rewrite !orb_false_r.
  destruct (raises_step s) eqn:R; simpl.
  - (* the last statement executed raises: its exception decides *)
    rewrite orb_true_r, final_outcome_snoc. simpl.
    destruct (existsb (fun s => is_raise (s_kind s)) ss); [reflexivity|].
    unfold exc_of_step. destruct (s_kind s); reflexivity.
  - assert (K : is_raise (s_kind s) = false).
    { unfold raises_step in R. destruct (s_kind s); try reflexivity. discriminate R. }
    rewrite K, app_nil_r, !orb_false_r. exact IH.
Qed.

Lemma fold_add_inv ds : forall reqs l, Inv reqs l ->
  exists tail, fold_left add_unique ds (Some l) = Some (l ++ tail)%list /\ Inv (reqs ++ ds)%list (l ++ tail)%list.
Proof.
  induction ds as [|d ds IH]; intros reqs l I; cbn [fold_left].
  - exists []. rewrite !app_nil_r. split; [reflexivity|exact I].
  - destruct (add_unique_inv reqs l d I) as [x [E I']]. rewrite E.
    destruct (IH _ _ I') as [tail [E2 I2]].
    exists (x :: tail). rewrite <- !app_assoc in *. simpl in *. split; assumption.
Qed.

Lemma steps_details ss : forall st,
  t_details (fold_left step_state ss st) = fold_left add_unique (flat_map requests_of_step ss) (t_details st).
Proof.
  induction ss as [|[k mis] r IH]; intro st; [reflexivity|]. simpl fold_left. simpl flat_map.
  rewrite IH, fold_left_app. f_equal. unfold step_state, requests_of_step. simpl.
  destruct k, mis as [ds|]; simpl; rewrite ?fold_left_app; reflexivity.
Qed.

Lemma inv_start pre : NoDup (map fst pre) -> Inv pre pre.
Proof.
  intro NDpre. split; [|exact NDpre]. unfold answers. clear. induction pre; constructor; [|assumption].
  split; [reflexivity|exists 0; reflexivity].
Qed.

Theorem run_test_spec (p : prog) : NoDup (map fst (p_pre p)) ->
  exists tail,
    run_test p = {| r_raised := map exp_raised (phases p); r_after_ran := true;
                    r_outcome := model_outcome p;
                    r_details := Some (p_pre p ++ tail)%list |}
    /\ Inv (p_pre p ++ flat_map requests_of_step (flat_map exec (phases p)))%list (p_pre p ++ tail)%list.
Proof.
  intro NDpre. destruct (run_test_outcome p) as [O _]. rewrite (run_test_fold p) in *. simpl in O.
  destruct (fold_add_inv (flat_map requests_of_step (flat_map exec (phases p))) _ _ (inv_start _ NDpre))
    as [tail [D I]].
  exists tail. rewrite O, steps_details. simpl t_details. rewrite D. auto.
Qed.

(* the observation keeps the payload details (token <> 0) only *)
Lemma answers_payload reqs ds : answers reqs ds -> answers (payload reqs) (payload ds).
Proof.
  unfold payload. induction 1 as [|req d reqs ds [E C] _ IH]; simpl; [constructor|].
  rewrite E. destruct (negb (Nat.eqb (snd req) 0)); [constructor; auto|exact IH].
Qed.

Lemma payload_all l : ~ In 0 (map snd l) -> payload l = l.
Proof.
  unfold payload. induction l as [|d l IH]; simpl; intro H; [reflexivity|].
  destruct (Nat.eqb_spec (snd d) 0) as [E|_].
  - exfalso. apply H. left. exact E.
  - simpl. f_equal. apply IH. intro; apply H; right; assumption.
Qed.

Lemma payload_app a b : payload (a ++ b) = (payload a ++ payload b)%list.
Proof. apply filter_app. Qed.

Lemma payload_requests steps : ~ In 0 (map snd (flat_map mis_details steps)) ->
  payload (flat_map requests_of_step steps) = flat_map mis_details steps.
Proof.
  induction steps as [|[k mis] r IH]; simpl; intro H; [reflexivity|].
  rewrite map_app in H. rewrite payload_app, IH by (intro X; apply H; apply in_or_app; auto). f_equal.
  assert (H1 : ~ In 0 (map snd (mis_details {| s_kind := k; s_mis := mis |})))
    by (intro X; apply H; apply in_or_app; auto).
  unfold requests_of_step, mis_details in *. simpl in *.
  destruct k, mis as [ds|]; simpl in *; try reflexivity.
  - apply payload_all. exact H1.
  - rewrite payload_app, (payload_all _ H1). apply app_nil_r.
Qed.

Lemma payload_nodup l : NoDup (map fst l) -> NoDup (map fst (payload l)).
Proof. apply sub_nodup, sub_map, sub_filter. Qed.

Lemma wanted_sub p : sub (wanted p) (all_details p).
Proof.
  unfold wanted, all_details. rewrite executed_all_exec. apply sub_app; [apply sub_refl|].
  apply sub_flat_map; [|apply phases_sub].
  intro s. unfold mis_details. destruct (attaches (s_kind s)); [apply sub_refl|apply sub_nil_l].
Qed.

Lemma nodup_str_iff l : nodup_str l = true <-> NoDup l.
Proof.
  induction l as [|x l IH]; simpl; [split; [constructor|reflexivity]|].
  rewrite andb_true_iff, negb_true_iff, IH. split.
  - intros [H1 H2]. constructor; [|exact H2]. intro Hin. apply mem_str_in in Hin. congruence.
  - intro H. inversion H; subst. split; [|assumption].
    destruct (mem_str x l) eqn:E; [apply mem_str_in in E; contradiction|reflexivity].
Qed.

Lemma prefix_str_app p rest : prefix_str p (p ++ rest) = true.
Proof. induction p as [|a p IH]; simpl; [reflexivity|]. rewrite Ascii.eqb_refl. exact IH. Qed.

Lemma prefix_str_exists p : forall s, prefix_str p s = true -> exists rest, s = p ++ rest.
Proof.
  induction p as [|a p IH]; intros s H; simpl in *; [eauto|].
  destruct s as [|b s]; [discriminate|]. apply andb_true_iff in H as [E H].
  apply Ascii.eqb_eq in E. subst b. destruct (IH s H) as [rest ->]. eauto.
Qed.

Lemma derived_of_cand n base : IsCand n base -> derived n base = true.
Proof.
  intros [k ->]. unfold derived. destruct k as [|k]; simpl.
  - rewrite String.eqb_refl. reflexivity.
  - unfold suffixed. rewrite <- append_assoc, prefix_str_app. apply orb_true_r.
Qed.

Lemma derived_sound n base : derived n base = true -> Derived n base.
Proof.
  unfold derived, Derived. intro H. apply orb_true_iff in H as [H|H].
  - left. apply String.eqb_eq. exact H.
  - right. destruct (prefix_str_exists _ _ H) as [rest ->]. exists rest. apply append_assoc.
Qed.

Lemma base_of_nodup w : NoDup (map snd w) -> forall b t, In (b, t) w -> base_of t w = Some b.
Proof.
  induction w as [|[n t'] w IH]; simpl; intros ND b t H; [contradiction|]. inversion ND; subst.
  destruct H as [H|H].
  - injection H as -> ->. rewrite Nat.eqb_refl. reflexivity.
  - destruct (Nat.eqb t t') eqn:E; [|apply IH; assumption].
    apply Nat.eqb_eq in E. subst t'. exfalso. apply H2. apply in_map_iff. exists (b, t). auto.
Qed.

Lemma detail_eqb_eq a b : detail_eqb a b = true <-> a = b.
Proof. destruct a, b; unfold detail_eqb; simpl. eqb_components ltac:(first [apply String.eqb_eq | apply Nat.eqb_eq]). Qed.

Lemma answers_snd w od : answers w od -> map snd od = map snd w.
Proof. induction 1 as [|a b w od [E _] _ IH]; simpl; [reflexivity|]. rewrite E, IH. reflexivity. Qed.

Lemma answers_in w od d : answers w od -> In d od -> exists b, In (b, snd d) w /\ IsCand (fst d) b.
Proof.
  induction 1 as [|a b w od [E C] _ IH]; simpl; intro H; [contradiction|].
  destruct H as [->|H].
  - exists (fst a). rewrite E. destruct a; simpl. auto.
  - destruct (IH H) as [b' [H1 H2]]. eauto.
Qed.

Theorem test_meets_spec p : wf (ITest p) -> spec_okb (ITest p) (model (ITest p)) = true.
Proof.
  intros [ND [NZ NDpre]]. unfold model.
  destruct (run_test_spec p NDpre) as [tail [E [A ND2]]].
  rewrite E. simpl. unfold test_okb. simpl.
  rewrite (eqb_spec_refl _ (list_eqb_spec _ (list_eqb_spec Bool.eqb bool_eqb_spec))), (model_outcome_ok p). simpl.
  (* the payload details answer the wanted ones *)
  pose proof (sub_map snd _ _ (wanted_sub p)) as S.
  assert (NZw : ~ In 0 (map snd (wanted p))) by (intro X; apply NZ; exact (sub_in _ _ _ S X)).
  assert (NDw : NoDup (map snd (wanted p))) by exact (sub_nodup _ _ S ND).
  assert (NZpre : ~ In 0 (map snd (p_pre p))).
  { intro X. apply NZw. unfold wanted. rewrite map_app. apply in_or_app. auto. }
  assert (W : payload (p_pre p ++ flat_map requests_of_step (flat_map exec (phases p))) = wanted p).
  { unfold wanted in *. rewrite executed_all_exec in *. rewrite map_app in NZw.
    rewrite payload_app, (payload_all _ NZpre), payload_requests; [reflexivity|].
    intro X. apply NZw. apply in_or_app. auto. }
  pose proof (answers_payload _ _ A) as AF. rewrite W in AF.
  unfold details_okb, same_tokens, count_nat. rewrite (answers_snd _ _ AF).
  rewrite (proj2 (same_counts Nat.eqb Nat.eqb_eq _ _) (fun _ => eq_refl)). simpl.
  rewrite (proj2 (nodup_str_iff _) (payload_nodup _ ND2)). simpl.
  apply andb_true_iff. split; apply forallb_forall; intros d Hd.
  - destruct (answers_in _ _ _ AF Hd) as [b [Hin C]].
    rewrite (base_of_nodup _ NDw b (snd d) Hin). apply derived_of_cand. exact C.
  - apply existsb_exists. exists d. split; [|apply detail_eqb_eq; reflexivity].
    rewrite payload_app, (payload_all _ NZpre). apply in_or_app. left. exact Hd.
Qed.

Theorem agree_always i : agree i = true.
Proof.
  destruct i as [isb s ml np|name modelled hm|p]; simpl; try reflexivity.
  rewrite lit_eq_tok. apply (list_eqb_spec N.eqb N.eqb_eq). reflexivity.
Qed.

Lemma expect_never_raises steps k s b :
  nth_error steps k = Some s -> s_kind s = ExpectThat -> nth_error (exp_raised steps) k = Some b -> b = false.
Proof.
  revert k. induction steps as [|s0 r IH]; intros [|k] Hs Hk Hb; simpl in Hs; try discriminate.
  - injection Hs as ->. simpl in Hb. unfold raises_step in Hb. rewrite Hk in Hb. injection Hb as <-. reflexivity.
  - simpl in Hb. destruct (raises_step s0); [destruct k; discriminate|]. exact (IH k Hs Hk Hb).
Qed.

(* a mismatching expectThat in a setUp that then skips: the test method does not run and the test fails
   (used by C07_example) *)
Definition witness_F21 : prog :=
  {| p_pre := []; p_setup := [{| s_kind := ExpectThat; s_mis := Some [("a", 1)] |}; {| s_kind := Raise XSkip; s_mis := None |}];
     p_setup_up := 0; p_body := []; p_teardown := []; p_teardown_up := 0; p_cleanups := [] |}.

Theorem unique_fresh existing base :
  exists r, unique_name existing base = Some r /\ ~ In r existing /\ IsCand r base.
Proof. apply unique_name_total. Qed.

Lemma okind_eqb_eq a b : okind_eqb a b = true <-> a = b.
Proof. destruct a, b; simpl; eqb_components ltac:(apply Nat.eqb_eq). Qed.

Lemma outcome_eqb_eq a b : outcome_eqb a b = true <-> a = b.
Proof. destruct a, b; simpl; eqb_components idtac. Qed.

Lemma outcome_okb_sound p oc : outcome_okb p oc = true -> OutcomeOk p oc.
Proof.
  unfold outcome_okb, OutcomeOk. intro H. destruct (expect_failed p).
  - split; [|split; discriminate]. intros _. destruct oc; try discriminate; auto.
  - split; [discriminate|]. destruct (any_raise p); simpl in H.
    + split; [discriminate|]. intros _ _ ER. rewrite ER in H. simpl in H. apply outcome_eqb_eq. exact H.
    + split; [|discriminate]. intros _ _. apply outcome_eqb_eq. exact H.
Qed.

Theorem spec_okb_sound i o : spec_okb i o = true -> Spec i o.
Proof.
  pose proof (list_eqb_spec Bool.eqb bool_eqb_spec) as LB.
  destruct i as [isb s ml np|name modelled hm|p], o as [out eb|kinds asserts|raised after oc od|];
    simpl; try discriminate.
  - unfold repr_okb. rewrite andb_true_iff. intros [-> H]. split; [reflexivity|].
    destruct (eval_lit out) as [[x l]|]; simpl in H; [|discriminate].
    apply andb_true_iff in H as [H1 H2]. apply (proj1 (bool_eqb_spec _ _)) in H1.
    apply (list_eqb_spec N.eqb N.eqb_eq) in H2. congruence.
  - intros H ->. simpl in H. rewrite andb_true_iff, (list_eqb_spec okind_eqb okind_eqb_eq), LB in H. exact H.
  - unfold test_okb, details_okb. intro H.
    apply andb_true_iff in H as [H HD]. apply andb_true_iff in H as [H H1]. apply andb_true_iff in H as [H ->].
    apply (list_eqb_spec _ LB) in H as ->.
    apply andb_true_iff in HD as [HD H6]. apply andb_true_iff in HD as [HD H5]. apply andb_true_iff in HD as [H3 H4].
    apply nodup_str_iff in H4. rewrite forallb_forall in H5, H6.
    split; [reflexivity|]. split; [reflexivity|]. split; [apply outcome_okb_sound; exact H1|].
    split; [apply (same_counts Nat.eqb Nat.eqb_eq); exact H3|]. split; [exact H4|]. split.
    + intros n t Hin. specialize (H5 (n, t) Hin). simpl in H5.
      destruct (base_of t (wanted p)) as [base|]; [|discriminate].
      exists base. split; [reflexivity|apply derived_sound; exact H5].
    + intros d Hd. destruct (proj1 (existsb_exists _ _) (H6 d Hd)) as [d' [Hin E]].
      apply detail_eqb_eq in E. subst. exact Hin.
Qed.

Theorem obs_eqb_spec a b : obs_eqb a b = true <-> alpha a = alpha b.
Proof.
  pose proof (list_eqb_spec N.eqb N.eqb_eq) as LN.
  pose proof (list_eqb_spec okind_eqb okind_eqb_eq) as LK.
  pose proof (list_eqb_spec Bool.eqb bool_eqb_spec) as LB.
  pose proof (list_eqb_spec _ LB) as LLB.
  destruct a as [x e|x xa|r a oc d|], b as [y f|y ya|r' a' oc' d'|]; simpl;
    try (split; discriminate); try (split; reflexivity).
  - rewrite andb_true_iff, LN, bool_eqb_spec. split; [intros [-> ->]; reflexivity|intro H; injection H; auto].
  - rewrite andb_true_iff, LK, LB. split; [intros [-> ->]; reflexivity|intro H; injection H; auto].
  - rewrite !andb_true_iff, LLB, bool_eqb_spec, outcome_eqb_eq, nats_eqb_spec. split.
    + intros [[[-> ->] ->] ->]. reflexivity.
    + intro H. injection H as -> -> -> H. apply (f_equal (map snd)) in H.
      rewrite !map_map, !map_id in H. auto.
Qed.

Lemma memN_in c l : memN c l = true <-> In c l.
Proof.
  induction l as [|x l IH]; simpl; [split; [discriminate|contradiction]|].
  rewrite orb_true_iff, IH, N.eqb_eq. split; intros [H|H]; auto.
Qed.
