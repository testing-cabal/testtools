(* Behind Props/C10.v (the record lemmas are reused by C09).  _StreamToTestRecord refines the segment
   specification: the in-progress table is the image of the open segments ([refines_gen]); the record of a
   segment is computed field by field ([fold_upd], [fold_addc]). *)
From Coq Require Import String Permutation.
From TT Require Import Lib.Base Lib.ListFacts Lib.Bytestr Gen.Streamtabs Model.StreamRec Spec.C10 Corr.C10 Lib.EqbFacts.
Open Scope list_scope.

Lemma final_table : forall st, final st = is_final st.
Proof. intros [[]|]; vm_compute; reflexivity. Qed.

Lemma outcome_table : forall st, outcome_of st = spec_outcome st.
Proof. intros []; vm_compute; reflexivity. Qed.

Definition spec_bucket (st : status) : option bucket :=
  match st with
  | Fail | Inprogress | Unknown => Some BErrors
  | Skip => Some BSkipped | Xfail => Some BExpectedFailures | Uxsuccess => Some BUnexpectedSuccesses
  | Success | Exists => None
  end.
Lemma bucket_table : forall st, bucket_of st = Some (spec_bucket st).
Proof. intros []; vm_compute; reflexivity. Qed.

(* every final state and 'inprogress' has a handler in StreamSummary; the only status
   without an entry in _status_map is 'exists' *)
Lemma handlers_cover_states :
  forallb (fun s => existsb (String.eqb s) summary_keys) ("inprogress"%string :: final_states) = true.
Proof. vm_compute; reflexivity. Qed.
Lemma states_are_the_eight :
  forall s, In s final_states <-> exists st, st <> Inprogress /\ status_name st = s.
Proof.
  intro s; split.
  - intro H. vm_compute in H.
    repeat (destruct H as [H|H]; [subst s|]); try contradiction;
      [exists Exists | exists Fail | exists Skip | exists Success | exists Unknown | exists Uxsuccess | exists Xfail];
      (split; [discriminate|reflexivity]).
  - (* membership decided by String.eqb; 'inprogress' is the one name left out *)
    intros [st [Hn <-]]. apply (existsb_eqb_In_gen _ String.eqb_eq).
    destruct st; try reflexivity. exfalso. apply Hn. reflexivity.
Qed.
Lemma fail_replays_as_failure : outcome_of Fail = Some AddFailure.
Proof. vm_compute; reflexivity. Qed.
(* both addError and addFailure travel as 'fail' *)
Lemma e2s_words :
  map (fun o => slookup (outcome_name o) e2s_status_word) all_outcomes
  = map (fun s => Some (status_name s)) [Success; Fail; Fail; Skip; Xfail; Uxsuccess].
Proof. vm_compute; reflexivity. Qed.

Lemma status_eqb_spec a b : status_eqb a b = true <-> a = b.
Proof. destruct a, b; simpl; eqb_components idtac. Qed.
Lemma outcome_eqb_spec a b : outcome_eqb a b = true <-> a = b.
Proof. destruct a, b; simpl; eqb_components idtac. Qed.
Lemma key_eqb_spec a b : key_eqb a b = true <-> a = b.
Proof. destruct a, b. unfold key_eqb; simpl. eqb_components ltac:(first [apply Nat.eqb_eq | apply onat_eqb_spec]). Qed.
Lemma key_eqb_refl k : key_eqb k k = true.
Proof. apply key_eqb_spec; reflexivity. Qed.
Lemma key_eqb_sym a b : key_eqb a b = key_eqb b a.
Proof.
  destruct (key_eqb a b) eqn:E1, (key_eqb b a) eqn:E2; try reflexivity.
  - apply key_eqb_spec in E1; subst. rewrite key_eqb_refl in E2; discriminate.
  - apply key_eqb_spec in E2; subst. rewrite key_eqb_refl in E1; discriminate.
Qed.

Lemma detail_eqb_spec a b : detail_eqb a b = true <-> a = b.
Proof.
  apply pair_eqb_spec; [exact Nat.eqb_eq|]. apply pair_eqb_spec; [exact Nat.eqb_eq | exact String.eqb_eq].
Qed.
Lemma details_eqb_spec a b : list_eqb detail_eqb a b = true <-> a = b.
Proof. apply list_eqb_spec. exact detail_eqb_spec. Qed.

Lemma rec_eqb_spec a b : rec_eqb a b = true <-> a = b.
Proof.
  destruct a, b. unfold rec_eqb, rec_tuple, pair_eqb; simpl.
  eqb_components ltac:(first [apply Nat.eqb_eq | apply nats_eqb_spec | apply details_eqb_spec | apply status_eqb_spec
                             | apply onat_eqb_spec]).
Qed.
Lemma recs_eqb_spec a b : list_eqb rec_eqb a b = true <-> a = b.
Proof. apply list_eqb_spec. exact rec_eqb_spec. Qed.

Lemma lev_eqb_spec a b : lev_eqb a b = true <-> a = b.
Proof.
  destruct a, b; simpl;
    eqb_components ltac:(first [apply Nat.eqb_eq | apply nats_eqb_spec | apply outcome_eqb_spec | apply details_eqb_spec]).
Qed.
Lemma levs_eqb_spec a b : list_eqb lev_eqb a b = true <-> a = b.
Proof. apply list_eqb_spec. exact lev_eqb_spec. Qed.

Lemma sl_eqb_spec a b : sl_eqb a b = true <-> a = b.
Proof.
  destruct a, b. unfold sl_eqb, sl_tuple, ids_eqb, pair_eqb; simpl.
  eqb_components ltac:(first [apply Nat.eqb_eq | apply nats_eqb_spec]).
Qed.

Section Perm.
  Context {A : Type} (eqb : A -> A -> bool) (eqb_spec : forall a b, eqb a b = true <-> a = b).

  Lemma remove1_perm x l : forall l', remove1 eqb x l = Some l' -> Permutation l (x :: l').
  Proof.
    induction l as [|y r IH]; intros l' H; simpl in H; [discriminate|].
    destruct (eqb x y) eqn:E.
    - apply eqb_spec in E. subst. inversion H; subst. apply Permutation_refl.
    - destruct (remove1 eqb x r) as [r'|]; [|discriminate]. inversion H; subst.
      eapply perm_trans; [apply perm_skip; apply IH; reflexivity | apply perm_swap].
  Qed.
  Lemma remove1_in x l : In x l -> exists l', remove1 eqb x l = Some l'.
  Proof.
    induction l as [|y r IH]; simpl; intro H; [contradiction|].
    destruct (eqb x y) eqn:E; [eauto|].
    destruct H as [H|H].
    - subst. assert (X : eqb x x = true) by (apply eqb_spec; reflexivity). congruence.
    - destruct (IH H) as [r' ->]. eauto.
  Qed.
  Theorem perm_eqb_spec l1 : forall l2, perm_eqb eqb l1 l2 = true <-> Permutation l1 l2.
  Proof.
    induction l1 as [|x r IH]; intro l2; simpl.
    - destruct l2; split; intro H; try reflexivity; try discriminate.
      apply Permutation_nil in H. discriminate.
    - destruct (remove1 eqb x l2) as [l2'|] eqn:R.
      + rewrite IH. pose proof (remove1_perm _ _ _ R) as P. split; intro H.
        * eapply perm_trans; [apply perm_skip; exact H | apply Permutation_sym; exact P].
        * apply Permutation_cons_inv with x. eapply perm_trans; [exact H | exact P].
      + split; [discriminate|]. intro H.
        destruct (remove1_in x l2) as [l' E]; [|congruence].
        eapply Permutation_in; [exact H | left; reflexivity].
  Qed.

  Lemma tail_permb_spec n a b : tail_permb eqb n a b = true <-> tail_perm n a b.
  Proof.
    unfold tail_permb, tail_perm. rewrite andb_true_iff, perm_eqb_spec, (list_eqb_spec eqb eqb_spec). tauto.
  Qed.
End Perm.

Lemma app_eq_length {A} (a : list A) : forall b c d, a ++ b = c ++ d -> List.length a = List.length c -> a = c /\ b = d.
Proof.
  induction a as [|x a IH]; intros b [|y c] d H L; simpl in *; try discriminate; [tauto|].
  inversion H; subst. destruct (IH b c d H2) as [-> ->]; [lia | tauto].
Qed.

Lemma sum_equivb_spec pre fa fb : sum_equivb pre fa fb = true <-> sum_equiv pre fa fb.
Proof.
  (* A conjunction of tests against the conjunction of what they decide: the tests nested to the right like the
     statement (andb_assoc), andb_iff through the conjunction, each conjunct by its test's specification (tried first:
     a test may itself unfold to a conjunction).  The three proofs below have the same shape. *)
  unfold sum_equivb, sum_equiv. rewrite <- !andb_assoc.
  repeat first [apply Nat.eqb_eq | apply (tail_permb_spec Nat.eqb Nat.eqb_eq) | apply andb_iff].
Qed.

Theorem obs_eqb_spec a b : obs_eqb a b = true <-> obs_equiv a b.
Proof.
  unfold obs_eqb, obs_equiv. rewrite <- !andb_assoc.
  repeat first [apply recs_eqb_spec | apply levs_eqb_spec | apply sl_eqb_spec | apply sum_equivb_spec | apply bool_eqb_spec
                | apply (perm_eqb_spec rec_eqb rec_eqb_spec) | apply (perm_eqb_spec (list_eqb lev_eqb) levs_eqb_spec)
                | apply andb_iff].
Qed.

Lemma tail_perm_refl {A} n (a : list A) : tail_perm n a a.
Proof. split; [reflexivity | apply Permutation_refl]. Qed.
Lemma tail_perm_sym {A} n (a b : list A) : tail_perm n a b -> tail_perm n b a.
Proof. intros [H1 H2]. split; [symmetry; exact H1 | apply Permutation_sym; exact H2]. Qed.
Lemma tail_perm_trans {A} n (a b c : list A) : tail_perm n a b -> tail_perm n b c -> tail_perm n a c.
Proof. intros [H1 H2] [H3 H4]. split; [congruence | eapply perm_trans; eassumption]. Qed.

Theorem obs_equiv_refl a : obs_equiv a a.
Proof. unfold obs_equiv, sum_equiv. repeat split; try apply Permutation_refl. Qed.
Lemma sum_equiv_sym pre fa fb : sum_equiv pre fa fb -> sum_equiv pre fb fa.
Proof.
  intros (R & F & Er & Sk & X & U).
  split; [symmetry; exact R|]. repeat split; apply tail_perm_sym; assumption.
Qed.
Lemma sum_equiv_trans pre fa fb fc : sum_equiv pre fa fb -> sum_equiv pre fb fc -> sum_equiv pre fa fc.
Proof.
  intros (R & F & Er & Sk & X & U) (R' & F' & Er' & Sk' & X' & U').
  split; [exact (eq_trans R R')|]. repeat split; eapply tail_perm_trans; eassumption.
Qed.

Theorem obs_equiv_sym a b : obs_equiv a b -> obs_equiv b a.
Proof.
  intros (H1 & H2 & H3 & HS & H5 & H6 & H7 & H8). rewrite H3 in HS.
  exact (conj (eq_sym H1)
        (conj (Permutation_sym H2)
        (conj (eq_sym H3)
        (conj (sum_equiv_sym _ _ _ HS)
        (conj (eq_sym H5)
        (conj (eq_sym H6)
        (conj (Permutation_sym H7)
              (eq_sym H8)))))))).
Qed.
Theorem obs_equiv_trans a b c : obs_equiv a b -> obs_equiv b c -> obs_equiv a c.
Proof.
  intros (H1 & H2 & H3 & HS & H5 & H6 & H7 & H8) (G1 & G2 & G3 & GS & G5 & G6 & G7 & G8). rewrite <- H3 in GS.
  exact (conj (eq_trans H1 G1)
        (conj (perm_trans H2 G2)
        (conj (eq_trans H3 G3)
        (conj (sum_equiv_trans _ _ _ _ HS GS)
        (conj (eq_trans H5 G5)
        (conj (eq_trans H6 G6)
        (conj (perm_trans H7 G7)
              (eq_trans H8 G8)))))))).
Qed.

Lemma last_app_opt {A} (o : option A) (l : list A) d :
  last ((match o with Some x => [x] | None => [] end) ++ l) d = last l (match o with Some x => x | None => d end).
Proof. destruct o; [apply last_cons | reflexivity]. Qed.

Section Dict.
  Context {V : Type}.
  Implicit Types (d : list (key * V)) (k : key).

  Definition NoDupKeys d := NoDup (map fst d).

  Lemma get_Some_In k d v : get k d = Some v -> In (k, v) d.
  Proof.
    induction d as [|[k' v'] d IH]; simpl; [discriminate|].
    destruct (key_eqb k k') eqn:E; [|auto]. apply key_eqb_spec in E. intro H; inversion H; subst. left; reflexivity.
  Qed.
  Lemma get_None_notin k d : get k d = None -> ~ In k (map fst d).
  Proof.
    induction d as [|[k' v'] d IH]; simpl; [tauto|].
    destruct (key_eqb k k') eqn:E; [discriminate|]. intros H [H1|H1]; [|exact (IH H H1)].
    subst. rewrite key_eqb_refl in E. discriminate.
  Qed.
  Lemma notin_get_None k d : ~ In k (map fst d) -> get k d = None.
  Proof.
    induction d as [|[k' v'] d IH]; simpl; [reflexivity|]. intro H.
    destruct (key_eqb k k') eqn:E; [apply key_eqb_spec in E; subst; tauto | apply IH; tauto].
  Qed.
  Lemma get_put k k' v d : get k (put k' v d) = if key_eqb k k' then Some v else get k d.
  Proof.
    induction d as [|[k2 v2] d IH]; simpl; [reflexivity|].
    destruct (key_eqb k' k2) eqn:E; simpl; [|rewrite IH; destruct (key_eqb k k2) eqn:E2; [|reflexivity]].
    - apply key_eqb_spec in E. subst k2. destruct (key_eqb k k'); reflexivity.
    - apply key_eqb_spec in E2. subst k2. rewrite key_eqb_sym, E. reflexivity.
  Qed.
  Lemma In_keys_del x k d : In x (map fst (del k d)) -> In x (map fst d).
  Proof.
    induction d as [|[k2 v2] d IH]; simpl; [tauto|].
    destruct (key_eqb k k2); simpl; tauto.
  Qed.
  Lemma In_keys_put x k v d : In x (map fst (put k v d)) -> x = k \/ In x (map fst d).
  Proof.
    induction d as [|[k2 v2] d IH]; simpl; [intros [->|[]]; left; reflexivity|].
    destruct (key_eqb k k2); simpl; tauto.
  Qed.
  Lemma NoDupKeys_del k d : NoDupKeys d -> NoDupKeys (del k d).
  Proof.
    unfold NoDupKeys. induction d as [|[k2 v2] d IH]; simpl; intro H; [constructor|].
    inversion H; subst. destruct (key_eqb k k2); [assumption|]. simpl. constructor; [|auto].
    intro Hin. apply In_keys_del in Hin. contradiction.
  Qed.
  Lemma NoDupKeys_put k v d : NoDupKeys d -> NoDupKeys (put k v d).
  Proof.
    unfold NoDupKeys. induction d as [|[k2 v2] d IH]; simpl; intro H; [repeat constructor; simpl; tauto|].
    inversion H; subst. destruct (key_eqb k k2) eqn:E; simpl; [constructor; assumption|].
    constructor; [|auto]. intro Hin. apply In_keys_put in Hin. destruct Hin as [->|Hin]; [|contradiction].
    rewrite key_eqb_refl in E. discriminate.
  Qed.
  Lemma get_del k k' d : NoDupKeys d -> get k (del k' d) = if key_eqb k k' then None else get k d.
  Proof.
    unfold NoDupKeys. induction d as [|[k2 v2] d IH]; simpl; intro H; [destruct (key_eqb k k'); reflexivity|].
    inversion H; subst. destruct (key_eqb k' k2) eqn:E; simpl.
    - apply key_eqb_spec in E. subst k2. destruct (key_eqb k k') eqn:E2; [|reflexivity].
      apply key_eqb_spec in E2. subst k'. apply notin_get_None. assumption.
    - rewrite IH by assumption. destruct (key_eqb k k2) eqn:E2; [|reflexivity].
      apply key_eqb_spec in E2. subst k2. rewrite key_eqb_sym, E. reflexivity.
  Qed.
  Lemma Forall_del (P : key * V -> Prop) k d : Forall P d -> Forall P (del k d).
  Proof.
    induction 1 as [|[k2 v2] d Hx Hd IH]; simpl; [constructor|].
    destruct (key_eqb k k2); [assumption | constructor; assumption].
  Qed.
  Lemma Forall_put (P : key * V -> Prop) k v d :
    P (k, v) -> Forall P d -> Forall P (put k v d).
  Proof.
    intros Hv. induction 1 as [|[k2 v2] d Hx Hd IH]; simpl; [repeat constructor; auto|].
    destruct (key_eqb k k2) eqn:E; constructor; auto.
    apply key_eqb_spec in E. subst k2. exact Hv.
  Qed.
End Dict.

Section Records.
  Variable M : Type.
  Variable CT : Type.
  Variable parse : option M -> CT.
  Notation event := (event M).
  Notation rcd := (rcd CT).
  Notation chunk := (chunk M).

  Definition addc (d : list (nat * (CT * string))) (c : chunk) := add_bytes parse (fst (fst c)) (snd (fst c)) (snd c) d.

  Lemma fold_upd (seg : list event) : forall r0 : rcd,
    fold_left (upd parse) seg r0 =
    {| r_id := r_id r0;
       r_tags := last (somes e_tags seg) (r_tags r0);
       r_details := fold_left addc (chunks seg) (r_details r0);
       r_status := last (somes e_status seg) (r_status r0);
       r_first := r_first r0;
       r_last := last (map e_ts seg) (r_last r0) |}.
  Proof.
    induction seg as [|e seg IH]; intro r0; [destruct r0; reflexivity|].
    cbn [fold_left]. rewrite IH. unfold chunks, somes. cbn [flat_map map].
    rewrite !last_app_opt, last_cons. unfold upd; cbn [r_id r_tags r_details r_status r_first r_last].
    rewrite fold_left_app. unfold chunk_of.
    destruct (e_fname e), (e_fbytes e) as [b|]; try destruct (sempty b); reflexivity.
  Qed.

  Lemma firsts_In l : forall seen x, In x (firsts seen l) <-> In x l /\ ~ In x seen.
  Proof.
    induction l as [|y l IH]; intros seen x; simpl; [tauto|].
    destruct (existsb (Nat.eqb y) seen) eqn:E.
    - apply existsb_eqb_In in E. rewrite IH. split; [tauto|]. intros [[->|H] Hn]; [contradiction | tauto].
    - assert (Hy : ~ In y seen) by (intro H; apply existsb_eqb_In in H; congruence).
      simpl. rewrite IH. simpl. split.
      + intros [->|[H Hn]]; [tauto|]. split; [tauto|]. intro; apply Hn; tauto.
      + intros [[->|H] Hn]; [tauto|]. destruct (Nat.eq_dec y x) as [->|Hne]; [tauto|].
        right. split; [exact H|]. intros [?|?]; [congruence | contradiction].
  Qed.

  Lemma firsts_NoDup l : forall seen, NoDup (firsts seen l).
  Proof.
    induction l as [|y l IH]; intro seen; simpl; [constructor|].
    destruct (existsb (Nat.eqb y) seen); [apply IH|].
    constructor; [|apply IH]. rewrite firsts_In. simpl. tauto.
  Qed.

  Lemma firsts_snoc l : forall seen x,
    firsts seen (l ++ [x]) = firsts seen l ++ (if existsb (Nat.eqb x) (seen ++ l) then [] else [x]).
  Proof.
    induction l as [|y l IH]; intros seen x; simpl.
    - rewrite app_nil_r. destruct (existsb (Nat.eqb x) seen); reflexivity.
    - destruct (existsb (Nat.eqb y) seen) eqn:E.
      + rewrite IH. f_equal.
        (* y is in seen already: looking for x in seen ++ l or in seen ++ y :: l is the same *)
        rewrite !existsb_app. cbn [existsb].
        destruct (Nat.eqb x y) eqn:Exy; [|reflexivity].
        apply Nat.eqb_eq in Exy. subst y. rewrite E. reflexivity.
      + simpl. rewrite IH. f_equal.
        cbn [app existsb]. rewrite !existsb_app. cbn [existsb].
        destruct (Nat.eqb x y), (existsb (Nat.eqb x) seen); reflexivity.
  Qed.

  Definition cname (c : chunk) : nat := fst (fst c).

  Lemma named_snoc n cs c : named n (cs ++ [c]) = named n cs ++ (if Nat.eqb n (cname c) then [c] else []).
  Proof. unfold named. rewrite filter_app. reflexivity. Qed.

  Lemma named_nil n cs : ~ In n (map cname cs) -> named n cs = [].
  Proof.
    induction cs as [|c cs IH]; simpl; intro H; [reflexivity|].
    destruct (Nat.eqb n (fst (fst c))) eqn:E.
    - apply Nat.eqb_eq in E. exfalso; apply H; left; symmetry; exact E.
    - apply IH. intro; apply H; right; assumption.
  Qed.
  Lemma named_cons n cs : In n (map cname cs) -> exists c r, named n cs = c :: r.
  Proof.
    induction cs as [|c cs IH]; simpl; intro H; [contradiction|].
    destruct (Nat.eqb n (fst (fst c))) eqn:E; [eauto|].
    destruct H as [H|H]; [|exact (IH H)]. unfold cname in H. rewrite H, Nat.eqb_refl in E. discriminate.
  Qed.

  Lemma file_of_other cs c n : n <> cname c -> file_of parse (cs ++ [c]) n = file_of parse cs n.
  Proof.
    intro H. unfold file_of. rewrite named_snoc.
    apply Nat.eqb_neq in H. rewrite H, app_nil_r. reflexivity.
  Qed.

  Lemma add_bytes_absent n m b (d : list (nat * (CT * string))) :
    ~ In n (map fst d) -> add_bytes parse n m b d = d ++ [(n, (parse m, b))].
  Proof.
    induction d as [|[n' [ct old]] d IH]; simpl; intro H; [reflexivity|].
    destruct (Nat.eqb n n') eqn:E; [apply Nat.eqb_eq in E; exfalso; apply H; left; symmetry; exact E|].
    rewrite IH; [reflexivity|]. intro; apply H; right; assumption.
  Qed.

  Lemma add_bytes_present cs c l : NoDup l -> In (cname c) l -> In (cname c) (map cname cs) ->
    add_bytes parse (cname c) (snd (fst c)) (snd c) (map (file_of parse cs) l) = map (file_of parse (cs ++ [c])) l.
  Proof.
    intros ND Hin Hcs. induction l as [|n l IH]; [contradiction|].
    inversion ND as [|? ? Hn ND']; subst. cbn [map add_bytes]. unfold file_of at 1.
    destruct (Nat.eqb (cname c) n) eqn:E.
    - apply Nat.eqb_eq in E. subst n. f_equal.
      + unfold file_of. rewrite named_snoc, Nat.eqb_refl.
        destruct (named_cons _ _ Hcs) as [c0 [r0 Hc0]]. rewrite Hc0. cbn [app].
        change (c0 :: r0 ++ [c]) with ((c0 :: r0) ++ [c]). rewrite map_app, sjoin_app.
        cbn [map sjoin fold_right]. rewrite sapp_nil_r. reflexivity.
      + apply map_ext_in. intros n Hn'. symmetry.
        apply file_of_other. intro; subst; contradiction.
    - fold (file_of parse cs n). rewrite file_of_other by (apply Nat.eqb_neq in E; congruence).
      f_equal. apply IH; [exact ND'|]. destruct Hin as [->|Hin]; [rewrite Nat.eqb_refl in E; discriminate | exact Hin].
  Qed.

  Lemma map_fst_file_of cs l : map fst (map (file_of parse cs) l) = l.
  Proof. rewrite map_map. unfold file_of. simpl. apply map_id. Qed.

  Lemma fold_addc cs : fold_left addc cs [] = map (file_of parse cs) (firsts [] (map cname cs)).
  Proof.
    induction cs as [|c cs IH] using rev_ind; [reflexivity|].
    rewrite fold_left_app. cbn [fold_left].
    rewrite IH. unfold addc. fold (cname c).
    rewrite map_app. cbn [map]. rewrite firsts_snoc. cbn [app].
    destruct (existsb (Nat.eqb (cname c)) (map cname cs)) eqn:E.
    - apply existsb_eqb_In in E. rewrite app_nil_r.
      apply add_bytes_present; [apply firsts_NoDup | apply firsts_In; simpl; tauto | exact E].
    - assert (Hn : ~ In (cname c) (map cname cs)) by (intro H; apply existsb_eqb_In in H; congruence).
      rewrite add_bytes_absent.
      + rewrite map_app. cbn [map]. f_equal.
        * apply map_ext_in. intros n Hin. symmetry. apply file_of_other.
          apply firsts_In in Hin. intro; subst; tauto.
        * unfold file_of. rewrite named_snoc, Nat.eqb_refl, (named_nil _ _ Hn). cbn [app map sjoin fold_right].
          rewrite sapp_nil_r. reflexivity.
      + rewrite map_fst_file_of. rewrite firsts_In. tauto.
  Qed.

  Definition model_record (i : nat) (seg : list event) : rcd :=
    fold_left (upd parse) seg (create i (match seg with e :: _ => e_ts e | [] => None end)).

  Theorem model_record_spec i seg : model_record i seg = seg_record parse i false seg.
  Proof.
    unfold model_record. rewrite fold_upd. unfold seg_record, files.
    cbn [create r_id r_tags r_details r_status r_first r_last].
    rewrite fold_addc. reflexivity.
  Qed.

  Lemma hung_seg_record i seg : hung (seg_record parse i false seg) = seg_record parse i true seg.
  Proof. reflexivity. Qed.
  Notation segment := (segment M).

  Definition seg_or_nil (o : option (list event)) : list event := match o with Some s => s | None => [] end.

  Definition absf (ks : key * list event) : key * rcd := (fst ks, model_record (fst (fst ks)) (snd ks)).
  Definition wf_open (open : list (key * list event)) := Forall (fun ks => snd ks <> []) open.

  Lemma get_absf k open :
    get k (map absf open) = option_map (model_record (fst k)) (get k open).
  Proof.
    induction open as [|[k' s] r IH]; simpl; [reflexivity|].
    destruct (key_eqb k k') eqn:E; [|exact IH]. apply key_eqb_spec in E. subst. reflexivity.
  Qed.
  Lemma put_absf k s open : put k (model_record (fst k) s) (map absf open) = map absf (put k s open).
  Proof.
    induction open as [|[k' s'] r IH]; simpl; [reflexivity|].
    destruct (key_eqb k k') eqn:E; simpl.
    - apply key_eqb_spec in E. subst. reflexivity.
    - rewrite IH. reflexivity.
  Qed.
  Lemma del_absf k open : del k (map absf open) = map absf (del k open).
  Proof.
    induction open as [|[k' s'] r IH]; simpl; [reflexivity|].
    destruct (key_eqb k k'); simpl; [reflexivity|]. rewrite IH. reflexivity.
  Qed.
  Lemma upd_open i e (o : option (list event)) : o <> Some [] ->
    upd parse (match option_map (model_record i) o with Some c => c | None => create i (e_ts e) end) e
    = model_record i (seg_or_nil o ++ [e]).
  Proof.
    destruct o as [[|x s]|]; intro H; [congruence | | reflexivity].
    unfold model_record. simpl. rewrite fold_left_app. reflexivity.
  Qed.

  Theorem refines_gen : forall evs open, wf_open open ->
    consume_from parse true (map absf open) evs = map (record_of parse) (segments open evs).
  Proof.
    induction evs as [|e r IH]; intros open W; cbn [consume_from segments].
    - unfold flush. rewrite <- map_rev, !map_map.
      apply map_ext. intros [k s]. unfold record_of. simpl.
      rewrite model_record_spec. reflexivity.
    - unfold step. destruct (e_id e) as [i|]; [|apply IH; assumption].
      rewrite final_table, get_absf. cbn [fst]. fold (seg_or_nil (get (i, e_route e) open)).
      rewrite upd_open.
      2:{ intro G. apply get_Some_In in G.
          unfold wf_open in W. rewrite Forall_forall in W. exact (W _ G eq_refl). }
      destruct (is_final (e_status e)); cbn [fst snd app].
      + cbn [map]. rewrite del_absf, IH by (apply Forall_del; assumption).
        unfold record_of at 1. cbn [g_key g_hung g_events fst]. rewrite model_record_spec. reflexivity.
      + change (model_record i ?x) with (model_record (fst (i, e_route e)) x).
        rewrite put_absf. apply IH.
        apply Forall_put; [|assumption]. simpl.
        destruct (seg_or_nil (get (i, e_route e) open)); discriminate.
  Qed.

  Theorem consume_refines evs : consume parse evs = tests parse evs.
  Proof. apply (refines_gen evs []). constructor. Qed.

  Definition has_id (e : event) : bool := match e_id e with Some _ => true | None => false end.

  Lemma segments_ignore_none evs : forall open, segments open evs = segments open (filter has_id evs).
  Proof.
    induction evs as [|e r IH]; intro open; [reflexivity|]. unfold has_id at 1. cbn [segments filter].
    destruct (e_id e) as [i|] eqn:Ei; [|apply IH]. cbn [segments]. rewrite Ei.
    destruct (is_final (e_status e)); rewrite IH; reflexivity.
  Qed.
  Definition has_key (k : key) (e : event) : bool :=
    match e_id e with Some i => key_eqb k (i, e_route e) | None => false end.
  Definition of_key (k : key) (g : segment) : bool := key_eqb k (g_key g).
  Definition mkhung (ks : key * list event) : segment := Seg (fst ks) true (snd ks).

  Lemma hung_of_absent k l : ~ In k (map fst l) -> List.concat (map g_events (filter (of_key k) (map mkhung l))) = [].
  Proof.
    induction l as [|[k' s'] l IH]; simpl; intro H; [reflexivity|].
    unfold of_key at 1. simpl. destruct (key_eqb k k') eqn:E; [apply key_eqb_spec in E; subst; tauto|].
    apply IH. tauto.
  Qed.
  Lemma hung_of_present k s l : NoDupKeys l -> In (k, s) l ->
    List.concat (map g_events (filter (of_key k) (map mkhung l))) = s.
  Proof.
    unfold NoDupKeys. induction l as [|[k' s'] l IH]; simpl; intros ND H; [contradiction|].
    inversion ND; subst. unfold of_key at 1. simpl. destruct H as [H|H].
    - inversion H; subst. rewrite key_eqb_refl. simpl.
      rewrite hung_of_absent by assumption. apply app_nil_r.
    - destruct (key_eqb k k') eqn:E.
      + apply key_eqb_spec in E; subst k'. exfalso. apply H2.
        apply (in_map fst) in H. exact H.
      + apply IH; assumption.
  Qed.

  Theorem partition_gen : forall evs open, NoDupKeys open -> forall k,
    List.concat (map g_events (filter (of_key k) (segments open evs)))
    = seg_or_nil (get k open) ++ filter (has_key k) evs.
  Proof.
    induction evs as [|e r IH]; intros open ND k; cbn [segments filter].
    - rewrite app_nil_r. fold mkhung.
      assert (NDr : NoDupKeys (rev open)) by (unfold NoDupKeys; rewrite map_rev; apply NoDup_rev; exact ND).
      destruct (get k open) as [s|] eqn:G; simpl.
      + apply hung_of_present; [exact NDr|]. apply in_rev. rewrite rev_involutive. apply get_Some_In; exact G.
      + apply hung_of_absent. rewrite map_rev. intro H.
        apply in_rev in H. exact (get_None_notin _ _ G H).
    - unfold has_key at 1. destruct (e_id e) as [i|]; [|apply IH; exact ND].
      set (k' := (i, e_route e)).
      destruct (is_final (e_status e)).
      + cbn [filter]. unfold of_key at 1. cbn [g_key].
        destruct (key_eqb k k') eqn:E; cbn [map List.concat g_events].
        all: rewrite IH by (apply NoDupKeys_del; exact ND).
        all: rewrite get_del, E by exact ND.
        * apply key_eqb_spec in E. subst k. simpl.
          unfold seg_or_nil. rewrite <- app_assoc. reflexivity.
        * reflexivity.
      + rewrite IH, get_put by (apply NoDupKeys_put; exact ND).
        destruct (key_eqb k k') eqn:E; [|reflexivity].
        apply key_eqb_spec in E. subst k. simpl.
        unfold seg_or_nil. rewrite <- app_assoc. reflexivity.
  Qed.

  Theorem partition evs k :
    List.concat (map g_events (filter (of_key k) (segments [] evs))) = filter (has_key k) evs.
  Proof. apply (partition_gen evs [] (NoDup_nil _) k). Qed.

  Definition interim (e : event) : Prop := is_final (e_status e) = false.
  Definition keyed (k : key) (e : event) : Prop := exists i, e_id e = Some i /\ (i, e_route e) = k.
  Definition seg_ok (g : segment) : Prop :=
    g_events g <> []
    /\ Forall (keyed (g_key g)) (g_events g)
    /\ (if g_hung g then Forall interim (g_events g)
        else exists init e, g_events g = init ++ [e] /\ is_final (e_status e) = true /\ Forall interim init).
  Definition open_ok (open : list (key * list event)) : Prop :=
    Forall (fun ks => snd ks <> [] /\ Forall (keyed (fst ks)) (snd ks) /\ Forall interim (snd ks)) open.

  Lemma get_open_ok k open : open_ok open ->
    Forall (keyed k) (seg_or_nil (get k open)) /\ Forall interim (seg_or_nil (get k open)).
  Proof.
    intro W. destruct (get k open) as [s|] eqn:G; simpl; [|split; constructor].
    apply get_Some_In in G. unfold open_ok in W. rewrite Forall_forall in W. destruct (W _ G) as [_ [H1 H2]].
    split; assumption.
  Qed.

  Theorem segments_shape : forall evs open, open_ok open -> Forall seg_ok (segments open evs).
  Proof.
    induction evs as [|e r IH]; intros open W; cbn [segments].
    - apply Forall_forall. intros g Hg. apply in_map_iff in Hg. destruct Hg as [[k s] [<- Hin]].
      apply in_rev in Hin. unfold open_ok in W. rewrite Forall_forall in W. destruct (W _ Hin) as [H0 [H1 H2]].
      repeat split; assumption.
    - destruct (e_id e) as [i|] eqn:Ei; [|apply IH; exact W].
      set (k := (i, e_route e)).
      destruct (get_open_ok k open W) as [Hk Hi]. fold (seg_or_nil (get k open)).
      assert (Hke : keyed k e) by (exists i; split; [exact Ei | reflexivity]).
      destruct (is_final (e_status e)) eqn:Ef.
      + constructor; [|apply IH; apply Forall_del; exact W].
        repeat split; cbn [g_events g_key g_hung].
        * destruct (seg_or_nil (get k open)); discriminate.
        * apply Forall_app; split; [exact Hk | constructor; [exact Hke | constructor]].
        * exists (seg_or_nil (get k open)), e. repeat split; assumption.
      + apply IH. apply Forall_put; [|exact W].
        cbn [fst snd]. repeat split.
        * destruct (seg_or_nil (get k open)); discriminate.
        * apply Forall_app; split; [exact Hk | constructor; [exact Hke | constructor]].
        * apply Forall_app; split; [exact Hi | constructor; [exact Ef | constructor]].
  Qed.

  Lemma completed_count : forall evs open,
    List.length (filter (fun g => negb (g_hung g)) (segments open evs))
    = List.length (filter (fun e => has_id e && is_final (e_status e)) evs).
  Proof.
    induction evs as [|e r IH]; intro open; cbn [segments filter].
    - induction (rev open) as [|x l IHl]; [reflexivity | exact IHl].
    - unfold has_id at 1. destruct (e_id e) as [i|]; [|apply IH]. cbn [andb].
      destruct (is_final (e_status e)); cbn [filter g_hung negb List.length]; rewrite IH; reflexivity.
  Qed.

  Lemma segments_events (evs : list event) (g : segment) e : In g (segments [] evs) -> In e (g_events g) -> In e evs.
  Proof.
    intros Hg He. assert (H : In e (filter (has_key (g_key g)) evs)); [|apply filter_In in H; tauto].
    rewrite <- partition. apply in_concat. exists (g_events g). split; [|exact He].
    apply in_map, filter_In. split; [exact Hg | apply key_eqb_refl].
  Qed.

  Lemma filter_hung_mk (l : list (key * list event)) :
    filter (@g_hung M) (map mkhung l) = map mkhung l /\ filter (@completed M) (map mkhung l) = [].
  Proof.
    induction l as [|x l [IH1 IH2]]; [split; reflexivity|]. simpl. rewrite IH1. split; [reflexivity | exact IH2].
  Qed.

  Theorem segments_split : forall evs open,
    segments open evs = filter (@completed M) (segments open evs) ++ filter (@g_hung M) (segments open evs).
  Proof.
    induction evs as [|e r IH]; intro open; cbn [segments].
    - fold mkhung. destruct (filter_hung_mk (rev open)) as [-> ->]. reflexivity.
    - destruct (e_id e) as [i|]; [|apply IH].
      destruct (is_final (e_status e)); [|apply IH].
      cbn [filter completed g_hung negb app]. f_equal. apply IH.
  Qed.

  Lemma consume_false_length : forall evs tbl,
    List.length (consume_from parse false tbl evs)
    = List.length (filter (fun e => has_id e && is_final (e_status e)) evs).
  Proof.
    induction evs as [|e r IH]; intro tbl; cbn [consume_from filter]; [reflexivity|].
    rewrite app_length, IH. unfold step, has_id. destruct (e_id e); cbn [andb snd]; [|reflexivity].
    rewrite final_table. destruct (is_final (e_status e)); reflexivity.
  Qed.

  Lemma consume_flush : forall evs tbl,
    consume_from parse true tbl evs = consume_from parse false tbl evs ++ flush (tbl_after parse tbl evs).
  Proof.
    induction evs as [|e r IH]; intro tbl; cbn [consume_from tbl_after fold_left]; [reflexivity|].
    rewrite IH, app_assoc. reflexivity.
  Qed.

  Theorem refines_parts : forall evs open, wf_open open ->
    consume_from parse false (map absf open) evs = map (record_of parse) (filter (@completed M) (segments open evs))
    /\ flush (tbl_after parse (map absf open) evs) = map (record_of parse) (filter (@g_hung M) (segments open evs)).
  Proof.
    intros evs open W. apply app_eq_length.
    - rewrite <- consume_flush, <- map_app, <- segments_split. apply refines_gen; exact W.
    - rewrite consume_false_length, map_length. symmetry. apply completed_count.
  Qed.

  Theorem consume_done evs : consume_from parse false [] evs = done_tests parse evs.
  Proof. apply (refines_parts evs []). constructor. Qed.
  Theorem flush_hung evs : flush (tbl_after parse [] evs) = hung_tests parse evs.
  Proof. apply (refines_parts evs []). constructor. Qed.
  Theorem tests_split evs : tests parse evs = done_tests parse evs ++ hung_tests parse evs.
  Proof. unfold tests, done_tests, hung_tests. rewrite <- map_app, <- segments_split. reflexivity. Qed.

  Definition nonexists (r : rcd) : bool := negb (status_eqb (r_status r) Exists).
  Definition rids_with (p : status -> bool) (ts : list rcd) : list nat := map r_id (filter (fun r => p (r_status r)) ts).

  Lemma fold_gather rs : forall s, s_keyerror s = false ->
    fold_left gather rs s =
    Summary (s_run s + List.length (filter nonexists rs)) (s_failures s)
            (s_errors s ++ rids_with failing rs) (s_skipped s ++ rids_with (status_eqb Skip) rs)
            (s_xfail s ++ rids_with (status_eqb Xfail) rs) (s_uxsuccess s ++ rids_with (status_eqb Uxsuccess) rs) false.
  Proof.
    induction rs as [|r rs IH]; intros s Hk.
    - destruct s; simpl in *; subst. rewrite Nat.add_0_r, !app_nil_r. reflexivity.
    - cbn [fold_left]. unfold rids_with, nonexists. cbn [filter].
      unfold gather at 2. rewrite bucket_table.
      (* by the status of r: gather counts it (unless 'exists') and appends its id to the list bucket_table names; then IH *)
      destruct (r_status r) eqn:Es; cbn [status_eqb negb spec_bucket failing push map List.length].
      all: rewrite IH by (cbn; exact Hk).
      all: cbn [s_run s_failures s_errors s_skipped s_xfail s_uxsuccess s_keyerror]; unfold rids_with, nonexists.
      all: rewrite <- ?app_assoc; cbn [app]; rewrite ?Nat.add_succ_r; reflexivity.
  Qed.

  Lemma rids_nonempty p ts : (exists r, In r ts /\ p (r_status r) = true) -> rids_with p ts <> [].
  Proof.
    intros [r [Hin Hp]] E. apply (in_nil (a := r_id r)). rewrite <- E.
    apply in_map, filter_In. split; assumption.
  Qed.

  Lemma strip_app (a b : list (logev CT)) : strip (a ++ b) = strip a ++ strip b.
  Proof. apply filter_app. Qed.

  Lemma strip_replay (r : rcd) : r_status r <> Exists -> strip (replay r) = bracket r.
  Proof.
    intro H. unfold replay, bracket. rewrite outcome_table.
    destruct (spec_outcome (r_status r)) as [o|] eqn:E.
    - destruct (r_first r), (r_last r); reflexivity.
    - (* only 'exists' has no outcome *)
      destruct (r_status r); try discriminate E. contradiction.
  Qed.
  Lemma strip_replays (rs : list rcd) : Forall (fun r => r_status r <> Exists) rs ->
    strip (flat_map (@replay CT) rs) = flat_map (@bracket CT) rs.
  Proof.
    induction 1 as [|r rs Hr _ IH]; [reflexivity|]. cbn [flat_map]. rewrite strip_app, IH, strip_replay by exact Hr.
    reflexivity.
  Qed.

  Lemma last_status_not_exists seg : Forall (fun e : event => not_exists e = true) seg ->
    forall d, d <> Exists -> last (somes e_status seg) d <> Exists.
  Proof.
    induction 1 as [|e seg He _ IH]; intros d Hd; [exact Hd|].
    unfold somes. cbn [flat_map]. rewrite last_app_opt. apply IH.
    unfold not_exists in He. destruct (e_status e) as [[]|]; try discriminate; assumption.
  Qed.

  Lemma tests_not_exists evs : Forall (fun r => r_status r <> Exists) (tests parse (filter not_exists evs)).
  Proof.
    unfold tests. apply Forall_forall. intros r Hr.
    apply in_map_iff in Hr. destruct Hr as [g [<- Hg]].
    unfold record_of, seg_record. cbn [r_status]. apply last_status_not_exists; [|discriminate].
    apply Forall_forall. intros e He. apply (segments_events _ _ _ Hg), filter_In in He. tauto.
  Qed.

  Lemma done_hung_not_exists evs :
    Forall (fun r : rcd => r_status r <> Exists) (done_tests parse (filter not_exists evs))
    /\ Forall (fun r : rcd => r_status r <> Exists) (hung_tests parse (filter not_exists evs)).
  Proof. apply Forall_app. rewrite <- tests_split. apply tests_not_exists. Qed.

  Notation nostop := (forallb (fun x : logev CT => negb (is_stoptest x))).

  Lemma blocks_concat (log : list (logev CT)) : forall cur bs rest,
    blocks cur log = (bs, rest) -> cur ++ log = List.concat bs ++ rest.
  Proof.
    induction log as [|x r IH]; intros cur bs rest H; cbn [blocks] in H.
    - inversion H; subst. cbn [List.concat app]. apply app_nil_r.
    - destruct (is_stoptest x).
      + destruct (blocks [] r) as [bs' rest'] eqn:B. inversion H; subst.
        specialize (IH [] _ _ B). cbn [app] in IH.
        cbn [List.concat]. rewrite <- !app_assoc, <- IH. reflexivity.
      + specialize (IH _ _ _ H). rewrite <- app_assoc in IH. exact IH.
  Qed.

  Lemma blocks_nostop (pre : list (logev CT)) : nostop pre = true -> forall cur log, blocks cur (pre ++ log) = blocks (cur ++ pre) log.
  Proof.
    induction pre as [|x pre IH]; intros H cur log; [rewrite app_nil_r; reflexivity|].
    cbn [forallb] in H. apply andb_true_iff in H. destruct H as [Hx Hp].
    cbn [app blocks]. apply negb_true_iff in Hx. rewrite Hx, (IH Hp), <- app_assoc. reflexivity.
  Qed.

  Lemma bracket_shape (r : rcd) : r_status r <> Exists ->
    exists pre, bracket r = pre ++ [LStopTest (r_id r)] /\ nostop pre = true.
  Proof.
    intro H. unfold bracket. destruct (spec_outcome (r_status r)) as [o|] eqn:E.
    - exists (opt_time (r_first r) ++ [LStartTest (r_id r)] ++ opt_time (r_last r)
              ++ [LOutcome o (r_id r) (r_tags r) (r_details r)]).
      split; destruct (r_first r), (r_last r); reflexivity.
    - destruct (r_status r); try discriminate. contradiction.
  Qed.

  Theorem blocks_brackets (rs : list rcd) tail : Forall (fun r => r_status r <> Exists) rs -> nostop tail = true ->
    blocks [] (flat_map (@bracket CT) rs ++ tail) = (map (@bracket CT) rs, tail).
  Proof.
    intros F T. induction F as [|r rs Hr _ IH]; cbn [flat_map map app].
    - rewrite <- (app_nil_r tail) at 1. rewrite (blocks_nostop tail T). reflexivity.
    - destruct (bracket_shape r Hr) as [pre [E P]]. rewrite E, <- !app_assoc, (blocks_nostop pre P).
      cbn [app blocks is_stoptest]. rewrite IH. reflexivity.
  Qed.

End Records.
Arguments model_record {M CT}.

Lemma ids_with_app p (a b : list rec) : ids_with p (a ++ b) = ids_with p a ++ ids_with p b.
Proof. unfold ids_with. rewrite filter_app, map_app. reflexivity. Qed.
Lemma ids_with_none (l : list rec) : ids_with no_st l = [].
Proof. induction l as [|r l IH]; [reflexivity | exact IH]. Qed.

Lemma bucket_okb_spec dn hg p pre fin : bucket_okb dn hg p pre fin = true <-> Bucket_spec dn hg p pre fin.
Proof.
  unfold bucket_okb, Bucket_spec, ids_eqb.
  rewrite !andb_true_iff, !nats_eqb_spec, (perm_eqb_spec Nat.eqb Nat.eqb_eq). split.
  - intros [[H1 H2] H3]. split; [exact H1|]. exists (skipn (List.length pre) fin). split; [|exact H3].
    rewrite <- H2 at 1. symmetry. apply firstn_skipn.
  - intros [H1 [added [-> H3]]]. rewrite firstn_exact, skipn_exact. tauto.
Qed.

Lemma summary_okb_spec dn hg pre fin ok : summary_okb dn hg pre fin ok = true <-> Summary_spec dn hg pre fin ok.
Proof.
  assert (W : (if existsb (fun r => failing (r_status r)) (dn ++ hg) then negb ok else true) = true
              <-> ((exists r, In r (dn ++ hg) /\ failing (r_status r) = true) -> ok = false)).
  { destruct (existsb (fun r => failing (r_status r)) (dn ++ hg)) eqn:X.
    - apply existsb_exists in X. rewrite negb_true_iff. tauto.
    - split; [|reflexivity]. intros _ [r [Hin Hf]].
      assert (Y : existsb (fun r => failing (r_status r)) (dn ++ hg) = true) by (apply existsb_exists; eauto).
      congruence. }
  unfold summary_okb, Summary_spec. rewrite <- !andb_assoc.
  repeat first [apply Nat.eqb_eq | apply bucket_okb_spec | apply W | apply andb_iff | apply orb_iff].
Qed.

Lemma extflush_okb_spec hg log : Forall (fun r : rec => r_status r <> Exists) hg ->
  extflush_okb hg log = true
  <-> exists hs, Permutation hs hg /\ log = flat_map bracket hs ++ [LStopRun].
Proof.
  intro NE. unfold extflush_okb. split.
  - destruct (blocks [] log) as [bs rest] eqn:B. rewrite andb_true_iff, levs_eqb_spec,
      (perm_eqb_spec (list_eqb lev_eqb) levs_eqb_spec). intros [P ->].
    apply Permutation_map_inv in P. destruct P as [hs [-> P]].
    exists hs. split; [apply Permutation_sym; exact P|].
    apply blocks_concat in B. cbn [app] in B. rewrite B, flat_map_concat_map. reflexivity.
  - intros [hs [P ->]].
    rewrite blocks_brackets; [| | reflexivity].
    + rewrite andb_true_iff, levs_eqb_spec, (perm_eqb_spec (list_eqb lev_eqb) levs_eqb_spec).
      split; [apply Permutation_map; exact P | reflexivity].
    + eapply Permutation_Forall; [apply Permutation_sym; exact P | exact NE].
Qed.

Theorem spec_okb_spec : forall i o, spec_okb i o = true <-> Spec i o.
Proof.
  intros i o. unfold spec_okb, Spec. cbv zeta. rewrite <- !andb_assoc.
  repeat first [apply recs_eqb_spec | apply levs_eqb_spec | apply (perm_eqb_spec rec_eqb rec_eqb_spec)
                | apply summary_okb_spec
                | apply (extflush_okb_spec _ _ (proj2 (done_hung_not_exists nat nat parse10 (evs i))))
                | apply andb_iff].
Qed.

Theorem spec_okb_sound : forall i o, spec_okb i o = true -> Spec i o.
Proof. intros i o. apply spec_okb_spec. Qed.

Lemma model_summary (es : list ev) :
  Summary_spec (done_tests parse10 es) (hung_tests parse10 es)
    (sum_lists (fold_left gather (consume_from parse10 false [] es) summary0))
    (sum_lists (summarize parse10 es)) (was_successful (summarize parse10 es)).
Proof.
  unfold summarize. rewrite consume_refines, consume_done, tests_split.
  set (dn := done_tests parse10 es). set (hg := hung_tests parse10 es).
  rewrite !fold_gather by reflexivity.
  unfold Summary_spec, Bucket_spec, sum_lists, was_successful.
  cbn [sl_run sl_failures sl_errors sl_skipped sl_xfail sl_uxs s_run s_failures s_errors s_skipped s_xfail
       s_uxsuccess summary0 app Nat.add].
  change (rids_with nat ?p ?t) with (ids_with p t). unfold is_st.
  change (nonexists nat) with counted.
  rewrite !ids_with_app, !ids_with_none, filter_app, app_length.
  assert (B : forall p, ids_with p dn = ids_with p dn
                        /\ exists added, ids_with p dn ++ ids_with p hg = ids_with p dn ++ added
                                          /\ Permutation added (ids_with p hg)).
  { intro p. split; [reflexivity|]. eexists; split; [reflexivity | apply Permutation_refl]. }
  split; [reflexivity|]. split; [reflexivity|].
  split; [apply B|]. split; [apply B|]. split; [apply B|]. split.
  - left. split; [apply B|]. split; [reflexivity|].
    exists []. split; [reflexivity | apply Permutation_refl].
  - intro E. apply rids_nonempty in E. change (rids_with nat failing ?t) with (ids_with failing t) in E.
    rewrite ids_with_app in E.
    destruct (ids_with failing dn ++ ids_with failing hg); [contradiction | reflexivity].
Qed.

Theorem model_Spec : forall i, Spec i (model i).
Proof.
  intro i. unfold Spec, model. cbv zeta. cbn [o_dicts o_flush o_pre o_sum o_ok o_ext o_extflush].
  destruct (done_hung_not_exists nat nat parse10 (evs i)) as [ND NH].
  split; [apply consume_done|]. split; [rewrite flush_hung; apply Permutation_refl|].
  split; [apply model_summary|]. split.
  - rewrite consume_done, strip_app, strip_replays by exact ND. reflexivity.
  - exists (hung_tests parse10 (filter not_exists (evs i))). split; [apply Permutation_refl|].
    rewrite flush_hung, strip_app, strip_replays by exact NH. reflexivity.
Qed.

Lemma perm_eqb_perm {A} (eqb : A -> A -> bool) (Heqb : forall a b, eqb a b = true <-> a = b) a b m :
  Permutation a b -> perm_eqb eqb a m = perm_eqb eqb b m.
Proof.
  intro P. apply eq_true_iff_eq. rewrite !(perm_eqb_spec eqb Heqb).
  split; intro H; [apply Permutation_sym in P|]; exact (perm_trans P H).
Qed.

Lemma bucket_okb_equiv dn hg p pre fa fb :
  tail_perm (List.length pre) fa fb -> bucket_okb dn hg p pre fa = bucket_okb dn hg p pre fb.
Proof. intros [T1 T2]. unfold bucket_okb. rewrite T1, (perm_eqb_perm Nat.eqb Nat.eqb_eq _ _ _ T2). reflexivity. Qed.

Lemma summary_okb_equiv dn hg pre fa fb ok :
  sum_equiv pre fa fb -> summary_okb dn hg pre fa ok = summary_okb dn hg pre fb ok.
Proof.
  intros (R & F & Er & Sk & X & U). unfold summary_okb. rewrite R.
  rewrite !(bucket_okb_equiv _ _ _ _ _ _ F), !(bucket_okb_equiv _ _ _ _ _ _ Er), (bucket_okb_equiv _ _ _ _ _ _ Sk),
    (bucket_okb_equiv _ _ _ _ _ _ X), (bucket_okb_equiv _ _ _ _ _ _ U).
  reflexivity.
Qed.

Theorem spec_okb_equiv i a b : obs_equiv a b -> spec_okb i a = spec_okb i b.
Proof.
  intros (H1 & H2 & H3 & HS & H5 & H6 & H7 & H8).
  (* the five clauses of spec_okb one by one *)
  unfold spec_okb. cbv zeta. f_equal; [f_equal; [f_equal; [f_equal|]|]|].
  - rewrite H1. reflexivity.
  - apply (perm_eqb_perm rec_eqb rec_eqb_spec). exact H2.
  - rewrite <- H3, <- H5. apply summary_okb_equiv. exact HS.
  - rewrite H6. reflexivity.
  - unfold extflush_okb. unfold ext_blocks in H7, H8.
    destruct (blocks [] (strip (o_extflush a))) as [bsa ra], (blocks [] (strip (o_extflush b))) as [bsb rb].
    simpl in H7, H8. subst rb. rewrite (perm_eqb_perm (list_eqb lev_eqb) levs_eqb_spec _ _ _ H7). reflexivity.
Qed.

Arguments has_id {M}. Arguments has_key {M}. Arguments of_key {M}. Arguments seg_ok {M}.

