(* What is observed after each call of a history, computed in one pass and read off the prefixes of the history. *)
From TT Require Import Lib.Base.

Fixpoint scan {S A B} (step : S -> A -> S) (obs : S -> B) (s : S) (h : list A) : list B :=
  match h with [] => [] | a :: r => obs (step s a) :: scan step obs (step s a) r end.

Lemma scan_prefixes {S A B} (step : S -> A -> S) (obs : S -> B) h : forall s,
  map (fun k => obs (fold_left step (firstn k h) s)) (seq 1 (length h)) = scan step obs s h.
Proof.
  induction h as [|a r IH]; intro s; [reflexivity|].
  cbn [length seq map scan]. f_equal. rewrite <- seq_shift, map_map. apply IH.
Qed.
