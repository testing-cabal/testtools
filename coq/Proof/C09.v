(* Behind Props/C09.v.  Along a well-formed history an invariant [Linked] links the converter's state, the receiver's
   in-progress table and the statement's reading of the history; [op_step] is one call, [history_ok] the induction.
   The rest computes what one outcome sends (the look-ahead loop, the mime round trip) and what the receiver
   rebuilds from it (the record lemmas of Proof/C10.v). *)
From Coq Require Import String Ascii Permutation.
From TT Require Import Lib.Base Lib.ListFacts Lib.Sort Lib.Bytestr Gen.Streamtabs Model.Mime Model.StreamRec Model.StreamConv Lib.EqbFacts.
From TT Require Import Spec.C10 Proof.C10.
From TT Require Import Spec.C09 Corr.C09.         (* imported last: C09's input / obs / alpha / spec_okb are the ones meant *)
Open Scope list_scope.

Lemma param_eqb_spec a b : param_eqb a b = true <-> a = b.
Proof. apply pair_eqb_spec; exact String.eqb_eq. Qed.
Lemma ctype_eqb_spec a b : ctype_eqb a b = true <-> a = b.
Proof.
  destruct a, b. unfold ctype_eqb; simpl.
  eqb_components ltac:(first [apply String.eqb_eq | apply (list_eqb_spec _ param_eqb_spec)]).
Qed.
Lemma octype_eqb_spec a b : octype_eqb a b = true <-> a = b.
Proof. apply option_eqb_spec. exact ctype_eqb_spec. Qed.
Lemma cev_eqb_spec a b : cev_eqb a b = true <-> a = b.
Proof.
  destruct a, b. unfold cev_eqb, cev_tuple, pair_eqb; simpl.
  eqb_components ltac:(first [apply onat_eqb_spec | apply (option_eqb_spec _ status_eqb_spec)
                             | apply (option_eqb_spec _ nats_eqb_spec) | apply (option_eqb_spec _ String.eqb_eq)
                             | apply bool_eqb_spec | apply octype_eqb_spec]).
Qed.
Lemma afile_eqb_spec a b : afile_eqb a b = true <-> a = b.
Proof.
  destruct a, b. unfold afile_eqb, afile_tuple, pair_eqb; simpl.
  eqb_components ltac:(first [apply onat_eqb_spec | apply Nat.eqb_eq | apply octype_eqb_spec | apply String.eqb_eq
                             | apply bool_eqb_spec]).
Qed.
Lemma aev_eqb_spec a b : aev_eqb a b = true <-> a = b.
Proof. destruct a, b; simpl; eqb_components ltac:(first [apply cev_eqb_spec | apply afile_eqb_spec]). Qed.
Lemma cdetail_eqb_spec a b : cdetail_eqb a b = true <-> a = b.
Proof. apply pair_eqb_spec; [exact Nat.eqb_eq|]. apply pair_eqb_spec; [exact ctype_eqb_spec | exact String.eqb_eq]. Qed.
Lemma clog_eqb_spec a b : clog_eqb a b = true <-> a = b.
Proof.
  destruct a, b; simpl;
    eqb_components ltac:(first [apply Nat.eqb_eq | apply nats_eqb_spec | apply outcome_eqb_spec
                               | apply (list_eqb_spec _ cdetail_eqb_spec)]).
Qed.

Open Scope string_scope.

Lemma has_char_app c a b : has_char c (a ++ b) = has_char c a || has_char c b.
Proof. induction a as [|x a IH]; simpl; [reflexivity|]. rewrite IH, orb_assoc. reflexivity. Qed.

Lemma all_chars_no c p s : (forall x, p x = true -> x <> c) -> all_chars p s = true -> has_char c s = false.
Proof.
  intros Hp. induction s as [|x s IH]; simpl; [reflexivity|]. intro H. apply andb_true_iff in H as [Hx Hs].
  rewrite IH by exact Hs. destruct (Ascii.eqb x c) eqn:E; [|reflexivity].
  apply Ascii.eqb_eq in E. exfalso. exact (Hp x Hx E).
Qed.

Lemma span_not_app c p q : has_char c p = false -> (q = "" \/ exists r, q = String c r) ->
  span_not c (p ++ q) = (p, q).
Proof.
  intros Hp Hq. induction p as [|x p IH]; simpl in *.
  - destruct Hq as [->|[r ->]]; simpl; [reflexivity|]. rewrite Ascii.eqb_refl. reflexivity.
  - apply orb_false_iff in Hp as [Hx Hp]. rewrite Hx, IH by exact Hp. reflexivity.
Qed.
Lemma span_not_none c s : has_char c s = false -> span_not c s = (s, "").
Proof. intro H. rewrite <- (sapp_nil_r s) at 1. apply span_not_app; [exact H | left; reflexivity]. Qed.

Lemma break_at_app c p q : has_char c p = false -> break_at c (p ++ String c q) = Some (p, q).
Proof.
  intros Hp. induction p as [|x p IH]; simpl in *.
  - rewrite Ascii.eqb_refl. reflexivity.
  - apply orb_false_iff in Hp as [Hx Hp]. rewrite Hx, IH by exact Hp. reflexivity.
Qed.

Lemma tok_char_not c : tok_char c = true ->
  c <> ";"%char /\ c <> "/"%char /\ c <> "="%char /\ c <> " "%char.
Proof. intro H. repeat split; intros ->; discriminate H. Qed.
Lemma val_char_not c : val_char c = true -> c <> dq.
Proof. intros H ->. discriminate H. Qed.

Lemma token_no s c : token s = true -> (forall x, tok_char x = true -> x <> c) -> has_char c s = false.
Proof.
  unfold token. intros H Hc. apply andb_true_iff in H as [_ H]. exact (all_chars_no c tok_char s Hc H).
Qed.
Lemma token_skip s r : token s = true -> skip_spaces (s ++ r) = s ++ r.
Proof.
  unfold token. destruct s as [|x s]; simpl; [discriminate|]. intro H. apply andb_true_iff in H as [Hx _].
  destruct (tok_char_not x Hx) as [_ [_ [_ Hsp]]].
  destruct (Ascii.eqb x " "%char) eqn:E; [apply Ascii.eqb_eq in E; contradiction | reflexivity].
Qed.

Definition wfp (kv : string * string) : Prop := wf_param kv = true.

Lemma render_item_tail kv t :
  render_item kv ++ t = fst kv ++ String "="%char (String dq (snd kv ++ String dq t)).
Proof.
  unfold render_item. rewrite sapp_assoc. simpl.
  rewrite sapp_assoc. reflexivity.
Qed.

Lemma pparams_tail kvs : Forall wfp kvs -> forall fuel, List.length kvs < fuel ->
  pparams fuel (tail_of (map render_item kvs)) = kvs.
Proof.
  induction 1 as [|[k v] kvs Hkv _ IH]; intros fuel Hf.
  - destruct fuel; reflexivity.
  - destruct fuel as [|f]; [inversion Hf|]. cbn [map tail_of pparams]. rewrite Ascii.eqb_refl.
    cbn [skip_spaces]. rewrite Ascii.eqb_refl. rewrite render_item_tail. cbn [fst snd].
    unfold wfp, wf_param in Hkv. cbn [fst snd] in Hkv. rewrite !andb_true_iff in Hkv.
    destruct Hkv as [[[Hk Hv] _] _].
    rewrite token_skip by exact Hk.
    rewrite break_at_app by (apply (token_no k _ Hk); intros x Hx; apply (tok_char_not x Hx)).
    rewrite Ascii.eqb_refl.
    rewrite break_at_app by (apply (all_chars_no dq val_char v val_char_not Hv)).
    rewrite IH by (simpl in Hf; apply Nat.succ_lt_mono; exact Hf). reflexivity.
Qed.

Lemma tail_of_length items : List.length items <= String.length (tail_of items).
Proof.
  induction items as [|it r IH]; simpl; [apply Nat.le_refl|]. rewrite slength_app.
  apply le_n_S. apply Nat.le_trans with (String.length (tail_of r)); [exact IH|].
  apply Nat.le_trans with (String.length it + String.length (tail_of r)); [apply Nat.le_add_l | apply Nat.le_succ_diag_r].
Qed.
Lemma tail_of_shape items : tail_of items = "" \/ exists r, tail_of items = String ";"%char r.
Proof. destruct items; simpl; [left; reflexivity | right; eexists; reflexivity]. Qed.

Lemma cut_comma_wf kv : wfp kv -> cut_comma kv = kv.
Proof.
  unfold wfp, wf_param, cut_comma. destruct kv as [k v]; cbn [fst snd]. intro H.
  destruct (String.eqb k "charset"); [|reflexivity].
  rewrite !andb_true_iff in H. destruct H as [_ H]. apply negb_true_iff in H.
  rewrite span_not_none by exact H. reflexivity.
Qed.

Definition item_leb (a b : string * string) : bool := String.leb (render_item a) (render_item b).
Lemma isort_map l : isort String.leb (map render_item l) = map render_item (isort item_leb l).
Proof.
  rewrite <- (map_id (isort String.leb _)). apply Forall2_map_eq.
  apply (isort_rel (fun a b => id a = render_item b) String.leb item_leb).
  - unfold id. intros a a' b b' -> ->. reflexivity.
  - induction l; simpl; constructor; [reflexivity | assumption].
Qed.

Theorem mime_roundtrip ct : wf_ct ct = true ->
  parse (render ct) = CType (ct_type ct) (ct_sub ct) (isort item_leb (ct_params ct)).
Proof.
  destruct ct as [t sub ps]. unfold wf_ct. cbn [ct_type ct_sub ct_params]. rewrite !andb_true_iff.
  intros [[[Ht Hs] Hp] _]. unfold render, parse. cbn [ct_type ct_sub ct_params].
  rewrite isort_map.
  assert (Hsorted : Forall wfp (isort item_leb ps)).
  { rewrite forallb_forall in Hp. apply Forall_forall. intros kv Hin. apply Hp.
    apply Permutation_in with (l := isort item_leb ps); [apply Permutation_sym, isort_perm | exact Hin]. }
  set (tl := tail_of (map render_item (isort item_leb ps))).
  replace (t ++ String "/"%char (sub ++ tl)) with ((t ++ String "/"%char sub) ++ tl)
    by (rewrite sapp_assoc; reflexivity).
  rewrite span_not_app; [| |apply tail_of_shape].
  - rewrite break_at_app by (apply (token_no t _ Ht); intros x Hx; apply (tok_char_not x Hx)).
    f_equal. unfold tl. rewrite pparams_tail.
    + clear -Hsorted. induction Hsorted as [|kv l Hkv _ IH]; [reflexivity|]. simpl.
      rewrite cut_comma_wf, IH by exact Hkv. reflexivity.
    + exact Hsorted.
    + apply le_n_S. rewrite <- (map_length render_item). apply tail_of_length.
  - rewrite has_char_app. simpl.
    rewrite (token_no t _ Ht) by (intros x Hx; apply (tok_char_not x Hx)).
    rewrite (token_no sub _ Hs) by (intros x Hx; apply (tok_char_not x Hx)). reflexivity.
Qed.

Lemma distinct_NoDup l : distinct l = true -> NoDup l.
Proof.
  induction l as [|x l IH]; simpl; [constructor|].
  rewrite andb_true_iff, negb_true_iff. intros [Hx Hl]. constructor; [|exact (IH Hl)].
  intro Hin. apply (existsb_eqb_In_gen _ String.eqb_eq) in Hin. congruence.
Qed.
Lemma plookup_In k v ps : NoDup (map fst ps) -> In (k, v) ps -> plookup k ps = Some v.
Proof.
  induction ps as [|[k' v'] ps IH]; simpl; intros ND Hin; [contradiction|]. inversion ND as [|? ? Hn ND']; subst.
  destruct Hin as [Hin|Hin].
  - inversion Hin; subst. rewrite String.eqb_refl. reflexivity.
  - destruct (String.eqb k k') eqn:E; [|exact (IH ND' Hin)].
    apply String.eqb_eq in E. subst k'. exfalso.
    apply Hn. apply (in_map fst) in Hin. exact Hin.
Qed.
Lemma params_sub_incl a b : NoDup (map fst b) -> (forall kv, In kv a -> In kv b) -> params_sub a b = true.
Proof.
  intros ND Hsub. unfold params_sub. apply forallb_forall.
  intros [k v] Hin. cbn [fst snd].
  rewrite (plookup_In k v b ND (Hsub _ Hin)). simpl. apply String.eqb_refl.
Qed.
Lemma ct_same_perm t s a b : NoDup (map fst a) -> Permutation a b -> ct_same (CType t s a) (CType t s b) = true.
Proof.
  intros ND P. unfold ct_same. cbn [ct_type ct_sub ct_params].
  rewrite !String.eqb_refl. cbn [andb].
  assert (NDb : NoDup (map fst b)) by (apply Permutation_NoDup with (l := map fst a); [apply Permutation_map; exact P | exact ND]).
  rewrite params_sub_incl; [|exact NDb | intros kv; apply Permutation_in; exact P].
  rewrite params_sub_incl; [reflexivity | exact ND | intros kv; apply Permutation_in; apply Permutation_sym; exact P].
Qed.

Theorem mime_roundtrip_same ct : wf_ct ct = true ->
  ct_same (parse (render ct)) ct = true /\ ct_same (norm_ct (parse (render ct))) ct = true.
Proof.
  intro H. rewrite (mime_roundtrip ct H). destruct ct as [t s ps]. cbn [ct_type ct_sub ct_params norm_ct].
  unfold wf_ct in H. cbn [ct_params] in H. rewrite !andb_true_iff in H. destruct H as [_ Hd].
  apply distinct_NoDup in Hd.
  assert (P1 : Permutation (isort item_leb ps) ps) by (apply Permutation_sym, isort_perm).
  assert (ND1 : NoDup (map fst (isort item_leb ps)))
    by (apply Permutation_NoDup with (l := map fst ps); [apply Permutation_map, Permutation_sym; exact P1 | exact Hd]).
  split.
  - apply ct_same_perm; assumption.
  - apply ct_same_perm.
    + apply Permutation_NoDup with (l := map fst (isort item_leb ps)); [apply Permutation_map, isort_perm | exact ND1].
    + apply Permutation_trans with (l' := isort item_leb ps); [apply Permutation_sym, isort_perm | exact P1].
Qed.
Close Scope string_scope.

Definition file_e (i n : nat) (b : string) (eof : bool) (mime : string) (ts : option nat) : event string :=
  Ev (Some i) None None None (Some n) (Some b) eof (Some mime) ts.
Definition status_e (i : nat) (st : status) (tags : option (list nat)) (ts : option nat) : event string :=
  Ev (Some i) None (Some st) tags None None false None ts.

Definition split_last (cs : list string) : list string * string :=
  match rev cs with [] => ([], ""%string) | l :: ri => (rev ri, l) end.

Lemma split_last_spec cs :
  (cs = [] /\ split_last cs = ([], ""%string)) \/ cs = fst (split_last cs) ++ [snd (split_last cs)].
Proof.
  unfold split_last. destruct (rev cs) as [|l ri] eqn:E.
  - left. split; [|reflexivity]. destruct cs; [reflexivity|].
    apply (f_equal (@List.length string)) in E. rewrite rev_length in E. discriminate.
  - right. simpl. rewrite <- (rev_involutive cs), E. reflexivity.
Qed.

Section Loop.
  Variable emit : string -> bool -> mev.

  (* the invariant: everything but the pending chunk has been emitted with eof=False *)
  Lemma chunk_loop_inv cs : forall p out,
    chunk_loop emit (Some p) cs out
    = (Some (last cs p), out ++ map (fun c => emit c false) (removelast (p :: cs))).
  Proof.
    induction cs as [|c r IH]; intros p out.
    - simpl. rewrite app_nil_r. reflexivity.
    - simpl chunk_loop. rewrite IH.
      rewrite last_cons. change (removelast (p :: c :: r)) with (p :: removelast (c :: r)).
      simpl map. rewrite <- app_assoc. reflexivity.
  Qed.

  Theorem chunk_loop_spec cs :
    (let (pending, out) := chunk_loop emit None cs [] in
     out ++ [emit (match pending with Some p => p | None => ""%string end) true])
    = map (fun c => emit c false) (fst (split_last cs)) ++ [emit (snd (split_last cs)) true].
  Proof.
    destruct cs as [|c r]; [reflexivity|].
    change (chunk_loop emit None (c :: r) []) with (chunk_loop emit (Some c) r []). rewrite chunk_loop_inv.
    rewrite <- (last_cons r c c). cbn [app].
    destruct (split_last_spec (c :: r)) as [[H _]|H]; [discriminate|].
    rewrite H at 1 2. rewrite removelast_last, last_last. reflexivity.
  Qed.
End Loop.

Definition detail_events (i : nat) (ts : option nat) (d : detail) : list (event string) :=
  map (fun c => file_e i (d_name d) c false (render (d_ct d)) ts) (fst (split_last (d_chunks d)))
  ++ [file_e i (d_name d) (snd (split_last (d_chunks d))) true (render (d_ct d)) ts].

Lemma convert_detail_events i ts d : convert_detail i ts d = map MStatus (detail_events i ts d).
Proof.
  unfold convert_detail. rewrite chunk_loop_spec. unfold detail_events, file_ev.
  rewrite map_app, map_map. reflexivity.
Qed.

Lemma group_detail i n mime ts init lst rest :
  group (map MStatus (map (fun c => file_e i n c false mime ts) init ++ [file_e i n lst true mime ts]) ++ rest)
  = AFile (AF (Some i) None n (canon_mime (Some mime)) (sjoin (init ++ [lst])) true ts) :: group rest.
Proof.
  induction init as [|c init IH].
  - simpl. rewrite sapp_nil_r. reflexivity.
  - cbn [map app]. cbn [map app] in IH.
    (* one unfolding of group at the head event, written out so that the recursive call stays as `group X`,
       the form IH rewrites, and the strings in the file event are not computed on *)
    change (group (MStatus (file_e i n c false mime ts) :: ?X))
      with (match group X with
            | AFile f :: rest0 =>
                if same_file (AF (Some i) None n (canon_mime (Some mime)) c false ts) f
                then AFile (AF (Some i) None n (canon_mime (Some mime)) (c ++ af_bytes f)%string (af_closed f) ts) :: rest0
                else AFile (AF (Some i) None n (canon_mime (Some mime)) c false ts) :: AFile f :: rest0
            | g => AFile (AF (Some i) None n (canon_mime (Some mime)) c false ts) :: g
            end).
    rewrite IH. unfold same_file. cbn [af_id af_route af_name af_bytes af_closed option_eqb]. rewrite !Nat.eqb_refl.
    reflexivity.
Qed.

Definition afile_of (i : nat) (ts : option nat) (d : detail) : aev :=
  AFile (AF (Some i) None (d_name d) (canon_mime (Some (render (d_ct d)))) (sjoin (d_chunks d)) true ts).

Lemma group_detail_events i ts d rest :
  group (map MStatus (detail_events i ts d) ++ rest) = afile_of i ts d :: group rest.
Proof.
  unfold detail_events, afile_of. rewrite group_detail. do 2 f_equal.
  destruct (split_last_spec (d_chunks d)) as [[H1 H2]|H]; [rewrite H2, H1; reflexivity | rewrite <- H; reflexivity].
Qed.

Lemma group_details i ts ds rest :
  group (map MStatus (flat_map (detail_events i ts) ds) ++ rest) = map (afile_of i ts) ds ++ group rest.
Proof.
  induction ds as [|d ds IH]; [reflexivity|]. cbn [flat_map map]. rewrite map_app, <- app_assoc.
  rewrite group_detail_events, IH. reflexivity.
Qed.

Lemma word_table : forall k, word_of k = final_word k.
Proof. intros []; vm_compute; reflexivity. Qed.
Lemma final_word_final k : final (Some (final_word k)) = true.
Proof. destruct k; vm_compute; reflexivity. Qed.
Lemma final_none : final None = false.
Proof. vm_compute; reflexivity. Qed.
Lemma final_inprogress : final (Some Inprogress) = false.
Proof. vm_compute; reflexivity. Qed.
Lemma outcome_of_final_word k : outcome_of (final_word k) = Some (replayed k).
Proof. destruct k; vm_compute; reflexivity. Qed.

Fixpoint s2e_tbl (tbl : list (key * crcd)) (ms : list mev) : list (key * crcd) :=
  match ms with
  | [] => tbl
  | m :: r => s2e_tbl (fst (s2e_step tbl m)) r
  end.
Lemma s2e_run_app tbl a b : s2e_run tbl (a ++ b) = s2e_run tbl a ++ s2e_run (s2e_tbl tbl a) b.
Proof.
  revert tbl; induction a as [|m a IH]; intro tbl; [reflexivity|].
  cbn [app s2e_run s2e_tbl]. rewrite IH, app_assoc. reflexivity.
Qed.
Lemma s2e_tbl_app tbl a b : s2e_tbl tbl (a ++ b) = s2e_tbl (s2e_tbl tbl a) b.
Proof. revert tbl; induction a as [|m a IH]; intro tbl; [reflexivity|]. cbn [app s2e_tbl]. apply IH. Qed.

Definition quiet (i : nat) (e : event string) : Prop :=
  e_id e = Some i /\ e_route e = None /\ e_status e = None /\ e_tags e = None.

Lemma s2e_quiet_step i r e : quiet i e ->
  s2e_step [((i, None), r)] (MStatus e) = ([((i, None), upd parse_opt r e)], []).
Proof.
  intros [Hi [Hr [Hs _]]]. unfold s2e_step, not_exists, step. rewrite Hs, Hi, Hr, final_none.
  cbn [get put]. rewrite key_eqb_refl. reflexivity.
Qed.
Lemma s2e_quiet i evs : forall r, Forall (quiet i) evs ->
  s2e_run [((i, None), r)] (map MStatus evs) = []
  /\ s2e_tbl [((i, None), r)] (map MStatus evs) = [((i, None), fold_left (upd parse_opt) evs r)].
Proof.
  induction evs as [|e evs IH]; intros r H; [split; reflexivity|].
  inversion H as [|? ? He Hevs]; subst. cbn [map s2e_run s2e_tbl fold_left].
  rewrite (s2e_quiet_step i r e He). cbn [fst snd app]. apply IH. exact Hevs.
Qed.
Lemma s2e_final_step i r k tags ts :
  s2e_step [((i, None), r)] (MStatus (status_e i (final_word k) tags ts))
  = ([], replay (upd parse_opt r (status_e i (final_word k) tags ts))).
Proof.
  unfold s2e_step, step, status_e. cbn [e_id e_route e_status].
  assert (Hne : not_exists (Ev (Some i) None (Some (final_word k)) tags None None false (@None string) ts) = true)
    by (destruct k; reflexivity).
  rewrite Hne, final_word_final. cbn [get del].
  rewrite key_eqb_refl. cbn [fst snd flat_map].
  rewrite app_nil_r. reflexivity.
Qed.
Definition rec0 (i t0 : nat) : crcd := Rcd i [] [] Inprogress (Some t0) (Some t0).
Lemma s2e_start_step i t0 :
  s2e_step [] (MStatus (status_e i Inprogress None (Some t0))) = ([((i, None), rec0 i t0)], []).
Proof.
  unfold s2e_step, step, status_e, not_exists. cbn [e_id e_route e_status]. rewrite final_inprogress. reflexivity.
Qed.

Lemma somes_none {A} (f : event string -> option A) evs : Forall (fun e => f e = None) evs -> somes f evs = [].
Proof.
  induction 1 as [|e evs He _ IH]; [reflexivity|]. unfold somes in *.
  cbn [flat_map]. rewrite He, IH. reflexivity.
Qed.
Lemma somes_app {A} (f : event string -> option A) a b : somes f (a ++ b) = somes f a ++ somes f b.
Proof. unfold somes. apply flat_map_app. Qed.
Lemma chunks_app (a b : list (event string)) : chunks (a ++ b) = chunks a ++ chunks b.
Proof. apply somes_app. Qed.

Notation addc9 := (addc string ctype parse_opt).

Lemma fold_upd_block evs j i st tg ts (r0 : crcd) : Forall (quiet j) evs ->
  fold_left (upd parse_opt) (evs ++ [status_e i st (Some tg) ts]) r0
  = Rcd (r_id r0) tg (fold_left addc9 (chunks evs) (r_details r0)) st (r_first r0) ts.
Proof.
  intros Q. rewrite fold_upd.
  assert (Ht : Forall (fun e : event string => e_tags e = None) evs) by (revert Q; apply Forall_impl; intros e H; apply H).
  assert (Hs : Forall (fun e : event string => e_status e = None) evs) by (revert Q; apply Forall_impl; intros e H; apply H).
  rewrite !somes_app, (somes_none e_tags evs Ht), (somes_none e_status evs Hs), chunks_app, map_app.
  cbn [map]. rewrite last_last.
  unfold chunks, somes, status_e. cbn. rewrite app_nil_r. reflexivity.
Qed.

Definition ne_chunks (n : nat) (mime : string) (cs : list string) : list (chunk string) :=
  flat_map (fun c => if sempty c then [] else [((n, Some mime), c)]) cs.

Lemma chunks_files i n mime ts eof cs :
  chunks (map (fun c => file_e i n c eof mime ts) cs) = ne_chunks n mime cs.
Proof.
  induction cs as [|c cs IH]; [reflexivity|]. unfold chunks, somes in *. cbn [map flat_map]. rewrite IH.
  unfold chunk_of, file_e, ne_chunks. cbn [e_fname e_fbytes e_mime flat_map]. destruct (sempty c); reflexivity.
Qed.
Lemma ne_chunks_app n mime a b : ne_chunks n mime (a ++ b) = ne_chunks n mime a ++ ne_chunks n mime b.
Proof. apply flat_map_app. Qed.

Lemma chunks_detail i ts d : chunks (detail_events i ts d) = ne_chunks (d_name d) (render (d_ct d)) (d_chunks d).
Proof.
  unfold detail_events. rewrite chunks_app, chunks_files.
  change [file_e i (d_name d) (snd (split_last (d_chunks d))) true (render (d_ct d)) ts]
    with (map (fun c => file_e i (d_name d) c true (render (d_ct d)) ts) [snd (split_last (d_chunks d))]).
  rewrite chunks_files, <- ne_chunks_app.
  destruct (split_last_spec (d_chunks d)) as [[H1 H2]|H]; [rewrite H2, H1; reflexivity | rewrite <- H; reflexivity].
Qed.

Lemma add_bytes_end n m b acc (ct : ctype) old : ~ In n (map fst acc) ->
  add_bytes parse_opt n m b (acc ++ [(n, (ct, old))]) = acc ++ [(n, (ct, (old ++ b)%string))].
Proof.
  induction acc as [|[n' [ct' old']] acc IH]; simpl; intro H.
  - rewrite Nat.eqb_refl. reflexivity.
  - destruct (Nat.eqb n n') eqn:E; [apply Nat.eqb_eq in E; exfalso; apply H; left; symmetry; exact E|].
    rewrite IH; [reflexivity|]. intro; apply H; right; assumption.
Qed.

Lemma fold_addc_last n mime cs : forall acc (ct : ctype) old, ~ In n (map fst acc) ->
  fold_left addc9 (ne_chunks n mime cs) (acc ++ [(n, (ct, old))]) = acc ++ [(n, (ct, (old ++ sjoin cs)%string))].
Proof.
  induction cs as [|c cs IH]; intros acc ct old H.
  - simpl. rewrite sapp_nil_r. reflexivity.
  - unfold ne_chunks. cbn [flat_map]. destruct (sempty c) eqn:E.
    + apply sempty_true in E. subst c. cbn [app].
      fold (ne_chunks n mime cs). rewrite IH by exact H. reflexivity.
    + cbn [app fold_left]. unfold addc at 2. cbn [fst snd]. rewrite add_bytes_end by exact H.
      fold (ne_chunks n mime cs). rewrite IH by exact H.
      cbn [sjoin fold_right]. rewrite sapp_assoc. reflexivity.
Qed.

(* what a detail leaves in the receiver's record: nothing when all its chunks are empty *)
Definition model_detail (n : nat) (mime : string) (cs : list string) : list (nat * (ctype * string)) :=
  if sempty (sjoin cs) then [] else [(n, (parse_opt (Some mime), sjoin cs))].

Lemma fold_addc_fresh n mime cs : forall acc, ~ In n (map fst acc) ->
  fold_left addc9 (ne_chunks n mime cs) acc = acc ++ model_detail n mime cs.
Proof.
  induction cs as [|c cs IH]; intros acc H.
  - unfold model_detail. simpl. rewrite app_nil_r. reflexivity.
  - unfold ne_chunks. cbn [flat_map]. destruct (sempty c) eqn:E.
    + pose proof E as E'. apply sempty_true in E'. subst c.
      cbn [app]. fold (ne_chunks n mime cs). rewrite IH by exact H.
      reflexivity.
    + cbn [app fold_left]. unfold addc at 2. cbn [fst snd]. rewrite (add_bytes_absent string ctype parse_opt) by exact H.
      fold (ne_chunks n mime cs). rewrite fold_addc_last by exact H.
      unfold model_detail. cbn [sjoin fold_right]. rewrite sempty_app, E. reflexivity.
Qed.

Definition model_details (ds : list detail) : list (nat * (ctype * string)) :=
  flat_map (fun d => model_detail (d_name d) (render (d_ct d)) (d_chunks d)) ds.

Lemma model_detail_names n mime cs x : In x (map fst (model_detail n mime cs)) -> x = n.
Proof. unfold model_detail. destruct (sempty (sjoin cs)); simpl; [tauto | intros [<-|[]]; reflexivity]. Qed.

Lemma distinct_nats_cons x l : distinct_nats (x :: l) = true -> ~ In x l /\ distinct_nats l = true.
Proof.
  simpl. rewrite andb_true_iff, negb_true_iff. intros [Hx Hl]. split; [|exact Hl].
  intro Hin. apply existsb_eqb_In in Hin. congruence.
Qed.

Lemma fold_details i ts ds : forall acc, distinct_nats (map d_name ds) = true ->
  (forall d, In d ds -> ~ In (d_name d) (map fst acc)) ->
  fold_left addc9 (chunks (flat_map (detail_events i ts) ds)) acc = acc ++ model_details ds.
Proof.
  induction ds as [|d ds IH]; intros acc Hd Hacc.
  - simpl. rewrite app_nil_r. reflexivity.
  - cbn [flat_map map] in *. apply distinct_nats_cons in Hd as [Hn Hd].
    rewrite chunks_app, fold_left_app, chunks_detail, fold_addc_fresh by (apply Hacc; left; reflexivity).
    rewrite IH; [unfold model_details; cbn [flat_map]; rewrite app_assoc; reflexivity | exact Hd |].
    intros d' Hin. rewrite map_app, in_app_iff. intros [H|H].
    + exact (Hacc d' (or_intror Hin) H).
    + apply model_detail_names in H. apply Hn.
      rewrite <- H. apply in_map. exact Hin.
Qed.

Definition same_set (a b : list nat) : Prop := forall x, In x a <-> In x b.

Lemma tinsert_In x s y : In y (tinsert x s) <-> In y (x :: s).
Proof.
  induction s as [|z s IH]; simpl; [tauto|].
  destruct (Nat.ltb x z); [simpl; tauto|].
  destruct (Nat.eqb x z) eqn:E; [apply Nat.eqb_eq in E; subst z; simpl; tauto|].
  simpl in *. rewrite IH. tauto.
Qed.
Lemma tunion_In add : forall s y, In y (tunion s add) <-> In y s \/ In y add.
Proof.
  unfold tunion. induction add as [|x add IH]; intros s y; simpl; [tauto|].
  rewrite IH, tinsert_In. simpl. tauto.
Qed.
Lemma not_in_filter (g l : list nat) y :
  In y (filter (fun x => negb (existsb (Nat.eqb x) g)) l) <-> In y l /\ ~ In y g.
Proof.
  rewrite filter_In, negb_true_iff. split; intros [H1 H2]; (split; [exact H1|]).
  - intro Hin. apply existsb_eqb_In in Hin. congruence.
  - destruct (existsb (Nat.eqb y) g) eqn:E; [|reflexivity]. apply existsb_eqb_In in E. contradiction.
Qed.
Lemma change_tags_In c n g y : In y (change_tags c n g) <-> (In y c \/ In y n) /\ ~ In y g.
Proof. unfold change_tags, tdiff. rewrite not_in_filter, tunion_In. tauto. Qed.
Lemma apply_tags_In c n g y : In y (apply_tags c n g) <-> (In y c \/ In y n) /\ ~ In y g.
Proof. unfold apply_tags. rewrite not_in_filter, in_app_iff. tauto. Qed.
Lemma same_set_change a b n g : same_set a b -> same_set (change_tags a n g) (apply_tags b n g).
Proof. intros H x. rewrite change_tags_In, apply_tags_In, (H x). tauto. Qed.
Lemma same_set_refl a : same_set a a.
Proof. intro x; tauto. Qed.
Lemma same_set_sym a b : same_set a b -> same_set b a.
Proof. intros H x. symmetry. apply H. Qed.
Lemma set_eqb_same a b : same_set a b -> set_eqb a b = true.
Proof.
  intro H. unfold set_eqb. apply andb_true_iff.
  split; apply forallb_forall; intros x Hx; apply existsb_eqb_In; apply H; exact Hx.
Qed.

Lemma forall2b_app {A B} (p : A -> B -> bool) a c : forall b d,
  forall2b p a c = true -> forall2b p b d = true -> forall2b p (a ++ b) (c ++ d) = true.
Proof.
  revert c; induction a as [|x a IH]; intros [|y c] b d H1 H2; simpl in *; try discriminate; [exact H2|].
  apply andb_true_iff in H1 as [Hx Ha]. rewrite Hx. simpl. apply IH; assumption.
Qed.
Lemma norm_log_app a b : norm_log (a ++ b) = norm_log a ++ norm_log b.
Proof. unfold norm_log, strip. rewrite filter_app, map_app. reflexivity. Qed.
Lemma norm_details_app a b : norm_details (a ++ b) = norm_details a ++ norm_details b.
Proof. apply map_app. Qed.

Lemma match_model_detail d : wf_ct (d_ct d) = true ->
  forall2b match_detail
    (if sempty (sjoin (d_chunks d)) then [] else [(d_name d, (d_ct d, sjoin (d_chunks d)))])
    (norm_details (model_detail (d_name d) (render (d_ct d)) (d_chunks d))) = true.
Proof.
  intro H. unfold model_detail. destruct (sempty (sjoin (d_chunks d))); [reflexivity|].
  cbn [norm_details map forall2b fst snd]. unfold match_detail. cbn [fst snd parse_opt].
  rewrite Nat.eqb_refl, String.eqb_refl. destruct (mime_roundtrip_same _ H) as [_ ->]. reflexivity.
Qed.
Lemma match_model_details ds : forallb (fun d => wf_ct (d_ct d)) ds = true ->
  forall2b match_detail (nonempty_details ds) (norm_details (model_details ds)) = true.
Proof.
  induction ds as [|d ds IH]; intro H; [reflexivity|]. cbn [forallb] in H. apply andb_true_iff in H as [Hd Hds].
  unfold nonempty_details, model_details. cbn [flat_map]. rewrite norm_details_app.
  apply forall2b_app; [apply match_model_detail; exact Hd | apply IH; exact Hds].
Qed.
Lemma reason_ct_same : ct_same (norm_ct (parse reason_mime)) reason_ct = true.
Proof. vm_compute. reflexivity. Qed.
Lemma match_model_reason b :
  forall2b match_detail (reason_detail (Some b)) (norm_details (model_detail reason_name reason_mime [b])) = true.
Proof.
  unfold reason_detail, model_detail. cbn [sjoin fold_right]. rewrite sapp_nil_r.
  destruct (sempty b); [reflexivity|]. cbn [norm_details map forall2b fst snd]. unfold match_detail. cbn [fst snd parse_opt].
  rewrite Nat.eqb_refl, String.eqb_refl, reason_ct_same. reflexivity.
Qed.

Definition reason_events (i : nat) (r : option string) (ts : option nat) : list (event string) :=
  match r with Some b => [file_e i reason_name b true reason_mime ts] | None => [] end.
Definition outcome_events (s : e2s) (k : outcome) (i : nat) (ds : option (list detail)) (r : option string) :=
  flat_map (detail_events i (now_ts s)) (some_list ds) ++ reason_events i r (now_ts s)
  ++ [status_e i (final_word k) (Some (current_tags s)) (now_ts s)].

Lemma flat_map_convert i ts ds :
  flat_map (convert_detail i ts) ds = map MStatus (flat_map (detail_events i ts) ds).
Proof.
  induction ds as [|d ds IH]; [reflexivity|]. cbn [flat_map]. rewrite map_app, IH, convert_detail_events. reflexivity.
Qed.
Lemma convert_events s k i ds r : convert s k i ds r = map MStatus (outcome_events s k i ds r).
Proof.
  unfold convert, outcome_events. rewrite !map_app, word_table. f_equal.
  - destruct ds; [apply flat_map_convert | reflexivity].
  - f_equal. destruct r; reflexivity.
Qed.

Lemma quiet_detail_events i ts ds : Forall (quiet i) (flat_map (detail_events i ts) ds).
Proof.
  apply Forall_forall. intros e He. apply in_flat_map in He. destruct He as [d [_ He]].
  unfold detail_events in He. apply in_app_iff in He. destruct He as [He|[<-|[]]].
  - apply in_map_iff in He. destruct He as [c [<- _]]. repeat split.
  - repeat split.
Qed.
Lemma quiet_reason_events i r ts : Forall (quiet i) (reason_events i r ts).
Proof. destruct r; simpl; [constructor; [repeat split | constructor] | constructor]. Qed.
Definition model_reason (r : option string) : list (nat * (ctype * string)) :=
  match r with Some b => model_detail reason_name reason_mime [b] | None => [] end.

Lemma outcome_details i ts k ds r : outcome_wf k ds r = true ->
  fold_left addc9 (chunks (flat_map (detail_events i ts) (some_list ds) ++ reason_events i r ts)) []
  = model_details (some_list ds) ++ model_reason r.
Proof.
  intro W. unfold outcome_wf in W. rewrite !andb_true_iff in W. destruct W as [[Wr _] Wd].
  rewrite chunks_app, fold_left_app.
  destruct r as [b|].
  - destruct ds as [l|]; [rewrite andb_false_r in Wr; discriminate|].
    cbn [some_list flat_map reason_events model_details model_reason app].
    change [file_e i reason_name b true reason_mime ts] with (map (fun c => file_e i reason_name c true reason_mime ts) [b]).
    rewrite chunks_files. change (chunks []) with (@nil (chunk string)). cbn [fold_left].
    rewrite fold_addc_fresh by (simpl; tauto). reflexivity.
  - cbn [reason_events model_reason]. change (chunks []) with (@nil (chunk string)). cbn [fold_left]. rewrite app_nil_r.
    destruct ds as [l|]; [|reflexivity]. cbn [some_list]. apply andb_true_iff in Wd as [Wn _].
    rewrite fold_details; [reflexivity | exact Wn | intros d _ H; exact H].
Qed.

Lemma outcome_received i k ds r tt rt nw t0 : outcome_wf k ds r = true ->
  let s := E2S true [tt; rt] nw in
  let t1 := match nw with Some t => t | None => wall end in
  s2e_run [((i, None), rec0 i t0)] (convert s k i ds r)
  = replay (Rcd i tt (model_details (some_list ds) ++ model_reason r) (final_word k) (Some t0) (Some t1))
  /\ s2e_tbl [((i, None), rec0 i t0)] (convert s k i ds r) = [].
Proof.
  intros W s t1. rewrite convert_events. unfold outcome_events. rewrite app_assoc, map_app.
  set (files := flat_map (detail_events i (now_ts s)) (some_list ds) ++ reason_events i r (now_ts s)).
  assert (Q : Forall (quiet i) files)
    by (apply Forall_app; split; [apply quiet_detail_events | apply quiet_reason_events]).
  destruct (s2e_quiet i files (rec0 i t0) Q) as [Hrun Htbl].
  rewrite s2e_run_app, s2e_tbl_app, Hrun, Htbl. cbn [map s2e_run s2e_tbl app].
  rewrite s2e_final_step. cbn [fst snd]. rewrite app_nil_r.
  change (upd parse_opt (fold_left (upd parse_opt) files (rec0 i t0)) ?e)
    with (fold_left (upd parse_opt) [e] (fold_left (upd parse_opt) files (rec0 i t0))).
  rewrite <- fold_left_app.
  rewrite (fold_upd_block files i) by exact Q.
  subst files. cbn [rec0 r_id r_details r_first]. rewrite (outcome_details i (now_ts s) k ds r W).
  split; reflexivity.
Qed.


Lemma outcome_grouped s k i ds r Y :
  group (convert s k i ds r ++ Y)
  = map (afile_of i (now_ts s)) (some_list ds)
    ++ (match r with Some b => [AFile (AF (Some i) None reason_name (canon_mime (Some reason_mime)) b true (now_ts s))] | None => [] end)
    ++ ARaw (canon_ev (status_e i (final_word k) (Some (current_tags s)) (now_ts s))) :: group Y.
Proof.
  rewrite convert_events. unfold outcome_events. rewrite map_app, <- app_assoc, group_details. f_equal.
  rewrite map_app, <- app_assoc. destruct r as [b|]; reflexivity.
Qed.

Lemma match_files i t1 ds : forallb (fun d => wf_ct (d_ct d)) ds = true ->
  forall2b match_mid (map (fun d => XFile i (d_name d) (d_ct d) (sjoin (d_chunks d)) t1) ds)
                     (map (afile_of i (Some t1)) ds) = true.
Proof.
  intro H. apply forall2b_map. intros d Hd.
  rewrite forallb_forall in H. specialize (H d Hd).
  unfold afile_of, match_mid. cbn [af_id af_route af_name af_ct af_bytes af_closed af_ts canon_mime option_map option_eqb].
  rewrite !Nat.eqb_refl, String.eqb_refl. destruct (mime_roundtrip_same _ H) as [_ ->]. reflexivity.
Qed.

(* phase of the history / converter state / receiver's in-progress table / the specification's reading *)
Inductive Linked : phase -> e2s -> list (key * crcd) -> sstate -> Prop :=
| L_not rt rt' nw : same_set rt rt' ->
    Linked PNot (E2S false [rt] nw) [] (SS false rt' None nw 0)
| L_idle rt rt' nw st : same_set rt rt' -> Linked PIdle (E2S true [rt] nw) [] (SS true rt' None nw st)
| L_in i tt rt tt' rt' nw t0 : same_set tt tt' -> same_set rt rt' ->
    Linked (PIn i) (E2S true [tt; rt] nw) [((i, None), rec0 i t0)] (SS true rt' (Some tt') nw t0)
| L_done i tt rt tt' rt' nw st : same_set tt tt' -> same_set rt rt' ->
    Linked (PDone i) (E2S true [tt; rt] nw) [] (SS true rt' (Some tt') nw st)
| L_stopped s ss : Linked PStopped s [] ss.

Lemma outcome_wf_cts k ds r : outcome_wf k ds r = true -> forallb (fun d => wf_ct (d_ct d)) (some_list ds) = true.
Proof.
  unfold outcome_wf. rewrite !andb_true_iff. intros [_ H]. destruct ds as [l|]; [|reflexivity].
  apply andb_true_iff in H as [_ H]. exact H.
Qed.

Lemma outcome_mid_ok i k ds r tt tt' rt nw Y XM : outcome_wf k ds r = true -> same_set tt tt' ->
  let s := E2S true [tt; rt] nw in
  let t1 := match nw with Some t => t | None => wall end in
  forall2b match_mid XM (group Y) = true ->
  forall2b match_mid
    ((map (fun d => XFile i (d_name d) (d_ct d) (sjoin (d_chunks d)) t1) (some_list ds)
      ++ (match r with Some b => [XFile i reason_name reason_ct b t1] | None => [] end)
      ++ [XStatus i (final_word k) (Some tt') t1]) ++ XM)
    (group (convert s k i ds r ++ Y)) = true.
Proof.
  intros W Ht s t1 H. rewrite outcome_grouped. rewrite <- !app_assoc.
  apply forall2b_app; [apply match_files; exact (outcome_wf_cts k ds r W)|].
  apply forall2b_app.
  - destruct r as [b|]; [|reflexivity]. cbn [forall2b match_mid af_id af_route af_name af_ct af_bytes af_closed af_ts
      canon_mime option_map option_eqb now_ts now s].
    rewrite !Nat.eqb_refl, String.eqb_refl, reason_ct_same. reflexivity.
  - cbn [app forall2b]. rewrite H, andb_true_r. unfold match_mid, canon_ev, status_e.
    cbn [e_id e_route e_status e_tags e_fname e_ts option_eqb current_tags tagstack s now_ts now].
    rewrite !Nat.eqb_refl, (eqb_spec_refl _ status_eqb_spec), (set_eqb_same _ _ Ht). reflexivity.
Qed.

Lemma outcome_fin_ok i k ds r tt tt' rt nw t0 : outcome_wf k ds r = true -> same_set tt tt' ->
  let s := E2S true [tt; rt] nw in
  let t1 := match nw with Some t => t | None => wall end in
  forall2b match_fin
    [YTime t0; YStartTest i; YTime t1;
     YOutcome (replayed k) i tt' (nonempty_details (some_list ds) ++ reason_detail r); YStopTest i]
    (norm_log (s2e_run [((i, None), rec0 i t0)] (convert s k i ds r))) = true.
Proof.
  intros W Ht s t1. subst s t1. destruct (outcome_received i k ds r tt rt nw t0 W) as [-> _].
  unfold replay. cbn [r_status r_first r_last r_tags r_id r_details]. rewrite outcome_of_final_word.
  cbn [opt_time app norm_log strip filter is_tags negb map norm_lev forall2b match_fin].
  rewrite !Nat.eqb_refl, (eqb_spec_refl _ outcome_eqb_spec), (set_eqb_same _ _ (same_set_sym _ _ Ht)). cbn [andb].
  rewrite andb_true_r. rewrite norm_details_app.
  apply forall2b_app; [apply match_model_details; exact (outcome_wf_cts k ds r W)|].
  destruct r as [b|]; [apply match_model_reason | reflexivity].
Qed.

(* the middle clause is stated in front of any matched rest because group does not distribute over ++ *)
Definition StepOk (q : phase) (s : e2s) (tbl : list (key * crcd)) (ss : sstate) (o : op) : Prop :=
  (forall Y XM, forall2b match_mid XM (group Y) = true ->
                forall2b match_mid (fst (snd (sstep ss o)) ++ XM) (group (snd (e2s_step s o) ++ Y)) = true)
  /\ forall2b match_fin (snd (snd (sstep ss o))) (norm_log (s2e_run tbl (snd (e2s_step s o)))) = true
  /\ Linked q (fst (e2s_step s o)) (s2e_tbl tbl (snd (e2s_step s o))) (fst (sstep ss o)).

Definition quiet_op (o : op) : bool := match o with OTime _ | OTags _ _ => true | _ => false end.

Lemma quiet_op_step p o q s tbl ss : Linked p s tbl ss -> wf_step p o = Some q -> quiet_op o = true -> StepOk q s tbl ss o.
Proof.
  intros HR Hw Hq.
  assert (H : q = p /\ snd (e2s_step s o) = [] /\ snd (sstep ss o) = ([], [])
              /\ Linked p (fst (e2s_step s o)) tbl (fst (sstep ss o))).
  { destruct HR, o; try discriminate Hq; try discriminate Hw; injection Hw as <-.
    all: repeat split; constructor; try apply same_set_change; assumption. }
  destruct H as (-> & E1 & E2 & HR'). unfold StepOk. rewrite E1, E2.
  repeat split; [intros Y XM H; exact H | exact HR'].
Qed.

Lemma start_test_step b rt rt' nw st j : same_set rt rt' ->
  StepOk (PIn j) (E2S b [rt] nw) [] (SS b rt' None nw st) (OStartTest j).
Proof.
  intros Hrt. set (t0 := match nw with Some t => t | None => wall end).
  assert (Hts : match_mid (XStatus j Inprogress None t0) (ARaw (canon_ev (status_e j Inprogress None (Some t0)))) = true).
  { unfold match_mid, canon_ev. cbn. rewrite !Nat.eqb_refl. reflexivity. }
  unfold StepOk.
  destruct b.
  all: cbn [sstep e2s_step ensure_started started start_run tagstack now fst snd app ss_started ss_now ss_run_tags ss_ts].
  all: unfold now_ts, ss_ts, current_tags.
  all: cbn [now ss_now tagstack]; fold t0.
  all: change (status_ev j Inprogress None (Some t0)) with (MStatus (status_e j Inprogress None (Some t0))).
  - split; [|split].
    + intros Y XM H. cbn [app group pure_file e_fname e_status e_tags status_e forall2b]. rewrite Hts, H. reflexivity.
    + unfold s2e_run. rewrite s2e_start_step. reflexivity.
    + unfold s2e_tbl. rewrite s2e_start_step. constructor; exact Hrt.
  - split; [|split].
    + intros Y XM H. cbn [app group pure_file e_fname e_status e_tags status_e forall2b]. rewrite Hts, H. reflexivity.
    + change (s2e_run [] (MStartRun :: ?r)) with (LStartRun :: s2e_run [] r).
      unfold s2e_run. rewrite s2e_start_step. reflexivity.
    + change (s2e_tbl [] (MStartRun :: ?r)) with (s2e_tbl [] r).
      unfold s2e_tbl. rewrite s2e_start_step. constructor; exact Hrt.
Qed.

Lemma op_step p o q s tbl ss : Linked p s tbl ss -> wf_step p o = Some q -> StepOk q s tbl ss o.
Proof.
  intros HR Hw. destruct (quiet_op o) eqn:Q; [exact (quiet_op_step p o q s tbl ss HR Hw Q)|].
  destruct HR as [ rt rt' nw Hrt | rt rt' nw st Hrt | i tt rt tt' rt' nw t0 Htt Hrt | i tt rt tt' rt' nw st Htt Hrt | s ss];
    destruct o as [ | | t | n g | j | j | k j ds r]; try discriminate Q; cbn [wf_step] in Hw; try discriminate Hw.
  - (* PNot, startTestRun: a time supplied before it is forgotten *)
    injection Hw as <-. repeat split; [intros Y XM H; cbn; exact H | constructor; apply same_set_refl].
  - injection Hw as <-. apply start_test_step. exact Hrt.
  - injection Hw as <-. repeat split; [intros Y XM H; cbn; exact H | constructor].
  - injection Hw as <-. apply start_test_step. exact Hrt.
  - destruct (Nat.eqb i j) eqn:Eij; [|discriminate Hw]. destruct (outcome_wf k ds r) eqn:W; [|discriminate Hw].
    injection Hw as <-. apply Nat.eqb_eq in Eij. subst j. unfold StepOk.
    cbn [e2s_step ensure_started started fst snd app sstep ss_ts ss_now ss_current ss_test_tags ss_start].
    split; [|split].
    + intros Y XM H. apply (outcome_mid_ok i k ds r tt tt' rt nw Y XM W Htt H).
    + apply (outcome_fin_ok i k ds r tt tt' rt nw t0 W Htt).
    + destruct (outcome_received i k ds r tt rt nw t0 W) as [_ ->]. constructor; assumption.
  - destruct (Nat.eqb i j); [|discriminate Hw]. injection Hw as <-.
    repeat split; [intros Y XM H; cbn; exact H | constructor; exact Hrt].
Qed.

Theorem history_ok : forall h p s tbl ss, Linked p s tbl ss -> wf_from p h = true ->
  forall2b match_mid (fst (expected ss h)) (group (e2s_run s h)) = true
  /\ forall2b match_fin (snd (expected ss h)) (norm_log (s2e_run tbl (e2s_run s h))) = true.
Proof.
  induction h as [|o h IH]; intros p s tbl ss HR Hw; [split; reflexivity|].
  cbn [wf_from] in Hw. destruct (wf_step p o) as [q|] eqn:Eq; [|discriminate Hw].
  destruct (op_step p o q s tbl ss HR Eq) as [Hmid [Hfin HR']].
  destruct (IH q _ _ _ HR' Hw) as [IHmid IHfin].
  cbn [expected e2s_run fst snd]. split.
  - apply Hmid. exact IHmid.
  - rewrite s2e_run_app, norm_log_app. apply forall2b_app; [exact Hfin | exact IHfin].
Qed.

Lemma history_ok0 h : wf_from PNot h = true ->
  forall2b match_mid (fst (expected ss0 h)) (group (mid_stream h)) = true
  /\ forall2b match_fin (snd (expected ss0 h)) (norm_log (final_log h)) = true.
Proof. apply (history_ok h PNot e2s0 [] ss0). constructor. apply same_set_refl. Qed.

Theorem stream_wf : forall h, wf_from PNot h = true ->
  Forall2 (fun x a => match_mid x a = true) (fst (expected ss0 h)) (group (mid_stream h)).
Proof.
  intros h W. apply (forall2b_sound _ _ (fun _ _ H => H)). exact (proj1 (history_ok0 h W)).
Qed.
Theorem roundtrip : forall h, wf_from PNot h = true ->
  Forall2 (fun y l => match_fin y l = true) (snd (expected ss0 h)) (norm_log (final_log h)).
Proof.
  intros h W. apply (forall2b_sound _ _ (fun _ _ H => H)). exact (proj2 (history_ok0 h W)).
Qed.

Lemma e2s_run_times ts : forall s h,
  e2s_run s (map OTime ts ++ h) = e2s_run (E2S (started s) (tagstack s) (last (map Some ts) (now s))) h.
Proof.
  induction ts as [|t ts IH]; intros s h; [destruct s; reflexivity|].
  cbn [map app e2s_run e2s_step fst snd]. rewrite IH.
  cbn [started tagstack now]. rewrite last_cons. reflexivity.
Qed.
Lemma expected_times ts : forall s h,
  expected s (map OTime ts ++ h)
  = expected (SS (ss_started s) (ss_run_tags s) (ss_test_tags s) (last (map Some ts) (ss_now s)) (ss_start s)) h.
Proof.
  induction ts as [|t ts IH]; intros s h; [destruct s; reflexivity|].
  cbn [map app expected sstep fst snd]. rewrite IH. cbn [ss_started ss_run_tags ss_test_tags ss_now ss_start].
  rewrite last_cons. destruct (expected _ h). reflexivity.
Qed.

(* time(t) then the implicit start: 'inprogress' carries t - sent and demanded;
   time(..) then an explicit startTestRun: the wall clock - sent and demanded *)
Theorem time_before_start ts t i h :
  (exists rest, mid_stream (map OTime ts ++ OTime t :: OStartTest i :: h)
                = MStartRun :: status_ev i Inprogress None (Some t) :: rest)
  /\ (exists xs, fst (expected ss0 (map OTime ts ++ OTime t :: OStartTest i :: h))
                 = XStartRun :: XStatus i Inprogress None t :: xs)
  /\ (exists rest, mid_stream (map OTime ts ++ OStartRun :: OStartTest i :: h)
                   = MStartRun :: status_ev i Inprogress None (Some wall) :: rest)
  /\ (exists xs, fst (expected ss0 (map OTime ts ++ OStartRun :: OStartTest i :: h))
                 = XStartRun :: XStatus i Inprogress None wall :: xs).
Proof.
  unfold mid_stream. rewrite !e2s_run_times, !expected_times. repeat split; eexists; cbn; reflexivity.
Qed.

Definition tags_ops (chs : list (list nat * list nat)) : list op := map (fun c => OTags (fst c) (snd c)) chs.
Definition tags_after (chs : list (list nat * list nat)) (c : list nat) : list nat :=
  fold_left (fun c ch => change_tags c (fst ch) (snd ch)) chs c.
Definition tags_wanted (chs : list (list nat * list nat)) (c : list nat) : list nat :=
  fold_left (fun c ch => apply_tags c (fst ch) (snd ch)) chs c.

Lemma e2s_run_tags chs : forall b c nw h,
  e2s_run (E2S b [c] nw) (tags_ops chs ++ h) = e2s_run (E2S b [tags_after chs c] nw) h.
Proof.
  induction chs as [|ch chs IH]; intros b c nw h; [reflexivity|].
  cbn [tags_ops map app e2s_run e2s_step tagstack started now fst snd]. apply IH.
Qed.
Lemma expected_tags chs : forall b c nw st h,
  expected (SS b c None nw st) (tags_ops chs ++ h) = expected (SS b (tags_wanted chs c) None nw st) h.
Proof.
  induction chs as [|ch chs IH]; intros b c nw st h; [reflexivity|].
  cbn [tags_ops map app expected sstep ss_test_tags ss_started ss_run_tags ss_now ss_start fst snd].
  fold (tags_ops chs). rewrite IH.
  cbn [tags_wanted fold_left]. destruct (expected _ h). reflexivity.
Qed.
Lemma tags_after_wanted chs : forall a b, same_set a b -> same_set (tags_after chs a) (tags_wanted chs b).
Proof.
  induction chs as [|ch chs IH]; intros a b H; [exact H|]. cbn [tags_after tags_wanted fold_left].
  apply IH. apply same_set_change. exact H.
Qed.

(* tags() calls, then a startTest that starts the run itself: the test's final status carries the tags those
   calls leave - sent and demanded; tags() calls, then an explicit startTestRun: no tags - sent and demanded *)
Theorem tags_before_start chs i h :
  (exists rest, mid_stream (tags_ops chs ++ OStartTest i :: OOutcome AddSuccess i None None :: h)
                = MStartRun :: status_ev i Inprogress None (Some wall)
                  :: status_ev i Success (Some (tags_after chs [])) (Some wall) :: rest)
  /\ (exists xs, fst (expected ss0 (tags_ops chs ++ OStartTest i :: OOutcome AddSuccess i None None :: h))
                 = XStartRun :: XStatus i Inprogress None wall
                   :: XStatus i Success (Some (tags_wanted chs [])) wall :: xs)
  /\ same_set (tags_after chs []) (tags_wanted chs [])
  /\ (exists rest, mid_stream (tags_ops chs ++ OStartRun :: OStartTest i :: OOutcome AddSuccess i None None :: h)
                   = MStartRun :: status_ev i Inprogress None (Some wall)
                     :: status_ev i Success (Some []) (Some wall) :: rest)
  /\ (exists xs, fst (expected ss0 (tags_ops chs ++ OStartRun :: OStartTest i :: OOutcome AddSuccess i None None :: h))
                 = XStartRun :: XStatus i Inprogress None wall :: XStatus i Success (Some []) wall :: xs).
Proof.
  unfold mid_stream, e2s0, ss0. rewrite !e2s_run_tags, !expected_tags.
  pose proof (tags_after_wanted chs [] [] (same_set_refl [])) as Hs. revert Hs.
  generalize (tags_after chs []) as ta, (tags_wanted chs []) as tw. intros ta tw Hs.
  split; [|split; [|split; [|split]]].
  - eexists. cbn [e2s_run e2s_step ensure_started started start_run tagstack now fst snd app current_tags convert now_ts].
    rewrite word_table. reflexivity.
  - eexists. cbn. reflexivity.
  - exact Hs.
  - eexists. cbn [e2s_run e2s_step ensure_started started start_run tagstack now fst snd app current_tags convert now_ts].
    rewrite word_table. reflexivity.
  - eexists. cbn. reflexivity.
Qed.
