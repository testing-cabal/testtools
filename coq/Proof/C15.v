(* C15 - proofs about Model/Spinner.v over Model/Reactor.v: one run() of the model from a
   clean reactor meets the statement for EVERY function program, timeout, oracle and
   reactor mode (invariant over the event loop), hence every history of runs does. *)
From Coq Require Import Permutation.
From TT Require Import Lib.Base Lib.ListFacts Lib.Sort Model.Reactor Model.Spinner Gen.Spinnertabs Spec.C15 Corr.C15
                       Proof.ReactorFacts Proof.C15Spec.

Notation call := (dcall action).
Notation rtor := (reactor action).

Definition seq_in (s : nat) (q : list call) : bool := existsb (fun c => Nat.eqb (dc_seq c) s) q.

Lemma seq_in_spec s q : seq_in s q = true <-> exists c, In c q /\ dc_seq c = s.
Proof.
  unfold seq_in. rewrite existsb_exists. split; intros [c [H1 H2]]; exists c; split; try exact H1;
    apply Nat.eqb_eq; exact H2.
Qed.

Lemma seq_in_remove_same s q : seq_in s (remove_seq s q) = false.
Proof.
  destruct (seq_in s (remove_seq s q)) eqn:E; [|reflexivity].
  apply seq_in_spec in E as [c [Hin Hs]]. apply in_remove_seq in Hin as [_ Hne]. congruence.
Qed.

Lemma seq_in_remove_other s s' q : s <> s' -> seq_in s (remove_seq s' q) = seq_in s q.
Proof.
  intro Hne. destruct (seq_in s q) eqn:E.
  - apply seq_in_spec in E as [c [Hin Hs]]. apply seq_in_spec. exists c. split; [|exact Hs].
    apply in_remove_seq. split; [exact Hin | congruence].
  - destruct (seq_in s (remove_seq s' q)) eqn:E'; [|reflexivity].
    apply seq_in_spec in E' as [c [Hin Hs]]. apply in_remove_seq in Hin as [Hin _].
    assert (seq_in s q = true) by (apply seq_in_spec; exists c; split; assumption). congruence.
Qed.

(* Spinner._clean's loop over getDelayedCalls(), as one update of the queue *)
Lemma fold_cancel_eq (l : list call) : forall w,
  fold_left (fun w c => set_r (cancel (dc_seq c) (w_r w)) w) l w
  = set_r (set_queue (fold_left (fun q c => remove_seq (dc_seq c) q) l (queue (w_r w))) (w_r w)) w.
Proof.
  induction l as [|a l IH]; intro w; simpl.
  - destruct w as [[] ? ? ? ? ? ?]. reflexivity.
  - rewrite IH. reflexivity.
Qed.

(* Three short names used throughout: nt t = "t is not the timeout's token"; tokc c = the token under which call c
   is logged; E w = the run-ending calls (tokens 0, 1, 2) that have run so far, in order.  Tokens: 0 the timeout,
   1 the Deferred firing, 2 the stop request; everything that cannot end the run has a token >= 10 (extras 10+i,
   selectables 100+j, hook calls 200+j). *)
Definition nt := not_timeout_tok.
Definition tokc (c : call) : nat := tok_of (dc_act c).
Definition E (w : world) : list nat := crash_toks (w_ran w).

Lemma crash_toks_app a b : crash_toks (a ++ b) = crash_toks a ++ crash_toks b.
Proof. unfold crash_toks. apply filter_app. Qed.

Lemma has_app t a b : has t (a ++ b) = has t a || has t b.
Proof. unfold has. apply existsb_app. Qed.

Lemma filter_nt_remove_timeout s (q : list call) :
  (forall c, In c q -> dc_seq c = s -> nt (tokc c) = false) ->
  filter nt (map tokc (remove_seq s q)) = filter nt (map tokc q).
Proof.
  induction q as [|a r IH]; simpl; intro H; [reflexivity|].
  destruct (Nat.eqb (dc_seq a) s) eqn:Es; simpl.
  - apply Nat.eqb_eq in Es. rewrite (H a (or_introl eq_refl) Es). apply IH.
    intros c Hc. apply H. right; exact Hc.
  - rewrite IH; [reflexivity|]. intros c Hc. apply H. right; exact Hc.
Qed.

Lemma perm_pop (q : list call) c ran rd : NoDup (map dc_seq q) -> In c q ->
  Permutation (filter nt (ran ++ [tokc c]) ++ filter nt (map tokc (remove_seq (dc_seq c) q)) ++ rd)
              (filter nt ran ++ filter nt (map tokc q) ++ rd).
Proof.
  intros Hn Hin. destruct (remove_seq_split q c Hn Hin) as [l1 [l2 [-> ->]]].
  rewrite !map_app, !filter_app. simpl. rewrite <- !app_assoc. apply Permutation_app_head.
  destruct (nt (tokc c)); simpl; [apply Permutation_middle | reflexivity].
Qed.

Lemma ev_time_events T f k t : ev_time T f k = Some t -> exists r, In (t, r) (events T f).
Proof.
  unfold ev_time, events. destruct k as [|[|[|k]]]; intro H.
  - injection H as <-. eexists; left; reflexivity.
  - destruct (f_shape f) as [| t' o |]; try discriminate. injection H as <-.
    eexists; right; left; reflexivity.
  - exists (Raised ENoResult). right. apply in_or_app; right. rewrite H. left; reflexivity.
  - discriminate.
Qed.

Lemma events_ev_time T f t : In t (map fst (events T f)) -> exists k, ev_time T f k = Some t.
Proof.
  unfold events. simpl. intros [<-|H]; [exists 0; reflexivity|].
  rewrite map_app in H. apply in_app_or in H as [H|H].
  - destruct (f_shape f) as [| t' o |] eqn:Es; simpl in H; try destruct H as [<-|[]]; try destruct H.
    exists 1. simpl. rewrite Es. reflexivity.
  - destruct (f_stop f) as [st|] eqn:Es; simpl in H; [destruct H as [<-|[]] | destruct H].
    exists 2. simpl. exact Es.
Qed.

Lemma earliest_least T f k t : ev_time T f k = Some t -> earliest (events T f) <= t.
Proof.
  intro H. destruct (ev_time_events T f k t H) as [r Hin].
  exact (proj2 (earliest_spec (events T f) (events_ne T f)) (t, r) Hin).
Qed.

Lemma earliest_attained T f : exists k, ev_time T f k = Some (earliest (events T f)).
Proof. apply events_ev_time, (earliest_spec (events T f) (events_ne T f)). Qed.

Lemma ev_time_le2 T f k t : ev_time T f k = Some t -> k <= 2.
Proof. destruct k as [|[|[|k]]]; simpl; intro H; [repeat constructor ..|discriminate]. Qed.

Record ctx := mkCtx {
  c_n0 : time;            (* the reactor's clock when run() was called *)
  c_T : time;
  c_f : fn;
  c_s : nat;              (* handle of the timeout call *)
  c_sig : sigtab;         (* the signal table while the reactor spins *)
  c_saved : sigtab;
  c_rd : list nat;        (* selectables registered by the function *)
  c_ht : list nat         (* tokens of the delayed calls scheduled by start-up hooks *)
}.

Section OneRun.
  Variable x : ctx.
  Notation T := (c_T x).
  Notation f := (c_f x).

  Definition estar : time := earliest (events T f).
  Definition mstar : time := c_n0 x + estar.

  (* a call the loop may meet: only the timeout call has the handle c_s; a run-ending call is due at its event's
     instant (relative to c_n0); the others are inert, with a token >= 10; the start-up hooks are gone *)
  Definition legit (c : call) : Prop :=
    (dc_seq c = c_s x -> dc_act c = ATimeout) /\
    match dc_act c with
    | ATimeout => dc_seq c = c_s x /\ dc_time c = c_n0 x + T
    | AFire o => exists t, f_shape f = Later t o /\ dc_time c = c_n0 x + t
    | AStopReq => exists st, f_stop f = Some st /\ dc_time c = c_n0 x + st
    | ANoop t => 10 <= t
    | ATry t _ => 10 <= t
    | ARunFunction _ _ | AHook _ _ => False
    end.

  (* every event that can end the run is still scheduled *)
  Definition present (q : list call) : Prop :=
    forall k t, ev_time T f k = Some t ->
      exists c, In c q /\ tokc c = k /\ dc_time c = c_n0 x + t.

  (* q: the queue, e: the run-ending calls that have run, sp: the spinner *)
  (* StA: nothing has ended the run yet, the timeout call is pending, nothing is recorded;
     StB: the timeout call ran first, TimeoutError is recorded;
     StC: the Deferred fired first, its result is recorded and the timeout call was cancelled *)
  Inductive st_ok (q : list call) (e : list nat) (sp : spinner) : Prop :=
  | StA : seq_in (c_s x) q = true -> has 0 e = false -> has 1 e = false ->
          sp_success sp = None -> sp_failure sp = None -> st_ok q e sp
  | StB : seq_in (c_s x) q = false -> has 0 e = true -> sp_failure sp = Some ETimeout -> st_ok q e sp
  | StC : seq_in (c_s x) q = false -> has 0 e = false -> has 1 e = true ->
          (exists t o, f_shape f = Later t o /\ get_result sp = result_of o) -> st_ok q e sp.

  Record Inv (w : world) : Prop := {
    i_nodup : NoDup (map dc_seq (queue (w_r w)));
    i_legit : Forall legit (queue (w_r w));
    i_stop : w_stop w = SFake;
    i_rs : really_stopped (w_r w) = false;
    i_hooks : hooks (w_r w) = [];
    i_rd : readers (w_r w) = c_rd x;
    i_sig : w_sig w = c_sig x;
    i_flag : w_flag w = true;
    i_re : reentry_okb f (w_reentry w) = true;
    i_junk : sp_junk (w_sp w) = [];
    i_saved : sp_saved (w_sp w) = c_saved x;
    i_tc : sp_timeout_call (w_sp w) = Some (c_s x);
    i_st : st_ok (queue (w_r w)) (E w) (w_sp w);
    i_phase : running (w_r w) = true -> E w = [] /\ sp_spinning (w_sp w) = true /\ present (queue (w_r w));
    i_live : running (w_r w) = true \/ E w <> [];
    i_early : forall k, In k (E w) -> ev_time T f k = Some estar;
    i_perm : Permutation (filter nt (w_ran w) ++ filter nt (map tokc (queue (w_r w))) ++ c_rd x)
                         (c_ht x ++ sched_tokens f);
    i_ht : forall t, In t (c_ht x) -> 10 <= t
  }.

  (* a legitimate call that can end the run carries its event's instant *)
  Lemma legit_ev c : legit c -> tokc c <= 2 -> exists t, ev_time T f (tokc c) = Some t /\ dc_time c = c_n0 x + t.
  Proof.
    unfold legit, tokc. intros [_ H] Hk. destruct (dc_act c) as [|o| |tk|tk oo| |]; simpl in *.
    - exists T. split; [reflexivity | apply H].
    - destruct H as [t [Es Ht]]. exists t. rewrite Es. split; [reflexivity | exact Ht].
    - destruct H as [st [Es Ht]]. exists st. split; assumption.
    - lia.
    - lia.
    - destruct H.
    - destruct H.
  Qed.

  (* the call that the reactor picks (none is due earlier) and that can end the run is due at the earliest of
     the three instants: while nothing has ended the run every such event still has its call in the queue,
     afterwards the reactor only drains the instant mstar *)
  Lemma first_time w c : Inv w ->
    (forall c', In c' (queue (w_r w)) -> dc_time c <= dc_time c') ->
    (E w <> [] -> dc_time c = mstar) ->
    forall t, ev_time T f (tokc c) = Some t -> dc_time c = c_n0 x + t -> t = estar.
  Proof.
    intros HI Hmin HE t Hev Ht.
    pose proof (earliest_least _ _ _ _ Hev) as Hle. fold estar in Hle.
    destruct (E w) as [|e0 er] eqn:EE.
    - destruct (i_live w HI) as [Hrun|Hne]; [|congruence].
      destruct (i_phase w HI Hrun) as [_ [_ Hp]].
      destruct (earliest_attained T f) as [k Hk].
      destruct (Hp k estar Hk) as [c' [Hc' [_ Ht']]].
      specialize (Hmin c' Hc'). lia.
    - assert (Hm : dc_time c = mstar) by (apply HE; discriminate).
      unfold mstar in Hm. lia.
  Qed.

  (* the Deferred fires at most once: token 1 occurs at most once among everything that was scheduled
     (hook and extra tokens start at 10, selectables at 100) *)
  Lemma count_fire_sched : (forall t, In t (c_ht x) -> 10 <= t) -> count (c_ht x ++ sched_tokens f) 1 <= 1.
  Proof.
    intro Hht. unfold count, sched_tokens. rewrite !count_occ_app.
    assert (H1 : count_occ Nat.eq_dec (c_ht x) 1 = 0).
    { apply count_occ_not_In. intro H. apply Hht in H. lia. }
    assert (H2 : count_occ Nat.eq_dec (map tok_extra (seq 0 (length (f_extras f)))) 1 = 0).
    { apply count_occ_not_In. intro H. apply in_map_iff in H as [j [Hj _]]. discriminate Hj. }
    assert (H3 : count_occ Nat.eq_dec (map tok_sel (seq 0 (f_sels f))) 1 = 0).
    { apply count_occ_not_In. intro H. apply in_map_iff in H as [j [Hj _]]. discriminate Hj. }
    rewrite H1, H2, H3.
    destruct (f_stop f); destruct (f_shape f); cbn; repeat constructor.
  Qed.

  Lemma fire_once w c o : Inv w -> has 1 (E w) = true -> In c (queue (w_r w)) -> dc_act c = AFire o -> False.
  Proof.
    intros HI Hh Hin Ha.
    pose proof (count_fire_sched (i_ht w HI)) as Hc. unfold count in Hc.
    rewrite <- (proj1 (Permutation_count_occ Nat.eq_dec _ _) (i_perm w HI) 1) in Hc.
    rewrite !count_occ_app in Hc.
    assert (H1 : 1 <= count_occ Nat.eq_dec (filter nt (w_ran w)) 1).
    { apply count_occ_In. apply filter_In. split; [|reflexivity].
      apply has_In in Hh. unfold E, crash_toks in Hh. apply filter_In in Hh. apply Hh. }
    assert (H2 : 1 <= count_occ Nat.eq_dec (filter nt (map tokc (queue (w_r w)))) 1).
    { apply count_occ_In. apply filter_In. split; [|reflexivity].
      apply in_map_iff. exists c. split; [|exact Hin]. unfold tokc. rewrite Ha. reflexivity. }
    lia.
  Qed.

  Lemma st_decided q e sp : st_ok q e sp -> get_result sp = decided f e.
  Proof.
    unfold decided. intros [Hp H0 H1 Hs Hf | Hp H0 Hf | Hp H0 H1 [t [o [Es Hr]]]].
    - rewrite H0, H1. unfold get_result. rewrite Hf, Hs. reflexivity.
    - rewrite H0. unfold get_result. rewrite Hf. reflexivity.
    - rewrite H0, H1, Es. exact Hr.
  Qed.
End OneRun.

Lemma legit_tok0 x c : legit x c -> tokc c = 0 -> dc_seq c = c_s x.
Proof.
  unfold legit, tokc. intros [_ H] Ht. destruct (dc_act c) as [|o| |tk|tk oo| |]; simpl in *; try discriminate.
  - apply H.
  - lia.
  - lia.
  - destruct H.
  - destruct H.
Qed.

Lemma filter_nt_id l : ~ In tok_timeout l -> filter nt l = l.
Proof.
  intro H. apply filter_all. intros a Ha. apply negb_true_iff, Nat.eqb_neq. intros ->. exact (H Ha).
Qed.

(* prj: projections of explicit records only *)
Ltac prj := cbn [w_r w_stop w_sig w_flag w_sp w_ran w_reentry now nextseq queue hooks readers running
                 really_stopped oracle sp_success sp_failure sp_junk sp_spinning sp_timeout_call sp_saved
                 dc_time dc_seq dc_act] in *.

(* a call of run() made while a run is in progress is refused and changes nothing *)
Definition refuses (inn : world -> res value exc * world) : Prop :=
  forall w, w_flag w = true -> inn w = (Raised EReentry, w).

Lemma reentry_okb_snoc f re : reentry_okb f re = true -> reentry_okb f (re ++ [true]) = true.
Proof.
  unfold reentry_okb. rewrite !andb_true_iff, forallb_app, app_length. intros [H1 H2]. simpl.
  rewrite H1. split; [reflexivity|]. apply Nat.leb_le. apply Nat.leb_le in H2. lia.
Qed.

Section Step.
  Variable x : ctx.
  Variable inn : world -> res value exc * world.
  Hypothesis Hinn : refuses inn.

  Definition popw (c : call) (nw : time) (orc' : list nat) (w : world) : world :=
    set_r (mkReactor nw (nextseq (w_r w)) (remove_seq (dc_seq c) (queue (w_r w))) (hooks (w_r w))
                     (readers (w_r w)) (running (w_r w)) (really_stopped (w_r w)) orc') w.

  Definition frame (w w' : world) : Prop :=
    w_stop w' = w_stop w /\ w_sig w' = w_sig w /\ w_flag w' = w_flag w
    /\ hooks (w_r w') = hooks (w_r w) /\ readers (w_r w') = readers (w_r w)
    /\ really_stopped (w_r w') = really_stopped (w_r w)
    /\ sp_junk (w_sp w') = sp_junk (w_sp w) /\ sp_saved (w_sp w') = sp_saved (w_sp w)
    /\ sp_timeout_call (w_sp w') = sp_timeout_call (w_sp w).

  Definition moves (w w' : world) (q' : list call) (t : nat) (re' : list bool) (run' : bool) : Prop :=
    frame w w' /\ queue (w_r w') = q' /\ w_ran w' = w_ran w ++ [t] /\ w_reentry w' = re'
    /\ running (w_r w') = run'.

  Definition running_after_stop (w : world) : bool :=
    if sp_spinning (w_sp w) then false else running (w_r w).

  Lemma stop_ends_running w : Inv x w -> running_after_stop w = false.
  Proof.
    intro HI. unfold running_after_stop. destruct (sp_spinning (w_sp w)) eqn:Hs; [reflexivity|].
    destruct (running (w_r w)) eqn:Hr; [|reflexivity].
    destruct (i_phase x w HI Hr) as (_ & Hs' & _). congruence.
  Qed.

  Lemma exec_timeout w c nw orc' : dc_act c = ATimeout ->
    let w' := exec_call inn c (popw c nw orc' w) in
    moves w w' (remove_seq (dc_seq c) (queue (w_r w))) (tokc c) (w_reentry w) (running_after_stop w)
    /\ sp_failure (w_sp w') = Some ETimeout.
  Proof.
    intro Ha. unfold exec_call, tokc, running_after_stop.
    rewrite Ha. unfold timed_out, stop_reactor. cbn.
    destruct (sp_spinning (w_sp w)); unfold moves, frame; cbn; repeat split; reflexivity.
  Qed.

  (* the Deferred fires: its result is recorded and the timeout cancelled if the timeout call is still
     pending; otherwise cancel() raises AlreadyCalled and nothing is recorded *)
  Lemma exec_fire w c nw orc' o s : dc_act c = AFire o -> sp_timeout_call (w_sp w) = Some s ->
    let q1 := remove_seq (dc_seq c) (queue (w_r w)) in
    let w' := exec_call inn c (popw c nw orc' w) in
    if seq_in s q1
    then moves w w' (remove_seq s q1) (tokc c) (w_reentry w) (running_after_stop w)
         /\ (sp_success (w_sp w) = None -> sp_failure (w_sp w) = None -> get_result (w_sp w') = result_of o)
    else moves w w' q1 (tokc c) (w_reentry w) (running_after_stop w) /\ sp_failure (w_sp w') = sp_failure (w_sp w).
  Proof.
    intros Ha Htc. destruct w as [[n sq q h rd run rs orc] st sg fl [su fa jk spn tc sv] ran re].
    prj. subst tc.
    unfold exec_call, tokc. rewrite Ha.
    unfold got, timeout_pending. prj.
    cbn [popw log_ran set_ran set_r w_sp sp_timeout_call w_r queue].
    fold (seq_in s (remove_seq (dc_seq c) q)).
    destruct (seq_in s (remove_seq (dc_seq c) q)); unfold moves, frame, running_after_stop.
    - destruct o, spn; cbn; (split; [repeat split|]); intros -> ->; reflexivity.
    - destruct spn; cbn; repeat split.
  Qed.

  Lemma exec_stop w c nw orc' : dc_act c = AStopReq -> w_stop w = SFake ->
    let w' := exec_call inn c (popw c nw orc' w) in
    moves w w' (remove_seq (dc_seq c) (queue (w_r w))) (tokc c) (w_reentry w) false /\ w_sp w' = w_sp w.
  Proof.
    intros Ha Hst. unfold exec_call, tokc.
    rewrite Ha. unfold reactor_stop. cbn. rewrite Hst. unfold moves, frame. cbn.
    repeat split; reflexivity || exact Hst.
  Qed.

  Lemma exec_inert w c nw orc' : w_flag w = true ->
    (exists t, dc_act c = ANoop t) \/ (exists t o, dc_act c = ATry t o) ->
    let w' := exec_call inn c (popw c nw orc' w) in
    exists re', (re' = w_reentry w \/ re' = w_reentry w ++ [true])
      /\ moves w w' (remove_seq (dc_seq c) (queue (w_r w))) (tokc c) re' (running (w_r w)) /\ w_sp w' = w_sp w.
  Proof.
    intros Hfl [[t Ha]|[t [o Ha]]]; unfold exec_call, tokc; rewrite Ha; eexists.
    - split; [left; reflexivity|]. unfold moves, frame. cbn. repeat split; reflexivity.
    - split; [right; reflexivity|]. unfold try_reenter.
      rewrite Hinn by exact Hfl. unfold moves, frame. cbn. repeat split; reflexivity.
  Qed.

  Lemma st_ok_ext q q' e e' sp : st_ok x q e sp -> seq_in (c_s x) q' = seq_in (c_s x) q ->
    has 0 e' = has 0 e -> has 1 e' = has 1 e -> st_ok x q' e' sp.
  Proof.
    intros H Hp H0 H1. destruct H.
    - apply StA; congruence.
    - apply StB; congruence.
    - apply StC; try congruence.
  Qed.

  Definition smaller (w w' : world) : Prop :=
    incl (queue (w_r w')) (queue (w_r w)) /\ length (queue (w_r w')) < length (queue (w_r w)).

  Definition stepped (w w' : world) (c : call) : Prop :=
    (E w' <> [] -> dc_time c = mstar x) /\ Inv x w' /\ smaller w w'.

  (* call c has run, and perhaps cancelled the timeout call: everything in the invariant that does not
     depend on which of the run-ending events have happened follows *)
  Lemma inv_popped w w' c (cancel : bool) re' run' :
    Inv x w -> In c (queue (w_r w)) ->
    moves w w' ((if cancel then remove_seq (c_s x) else fun q => q) (remove_seq (dc_seq c) (queue (w_r w))))
          (tokc c) re' run' ->
    reentry_okb (c_f x) re' = true ->
    st_ok x (queue (w_r w')) (E w') (w_sp w') ->
    (run' = true -> E w' = [] /\ sp_spinning (w_sp w') = true /\ present x (queue (w_r w'))) ->
    (run' = true \/ E w' <> []) ->
    (forall k, In k (E w') -> ev_time (c_T x) (c_f x) k = Some (estar x)) ->
    Inv x w' /\ smaller w w'.
  Proof.
    intros HI Hin (Hfr & Hq & Hran & Hre' & Hrun) Hre Hst Hph Hlive Hearly.
    destruct Hfr as (F1 & F2 & F3 & F4 & F5 & F6 & F7 & F8 & F9).
    pose proof (i_nodup x w HI) as Hnd. pose proof (i_legit x w HI) as Hlg.
    set (q1 := remove_seq (dc_seq c) (queue (w_r w))) in *.
    assert (Hsub : incl (queue (w_r w')) q1).
    { rewrite Hq. destruct cancel; [apply incl_remove_seq | apply incl_refl]. }
    assert (Hlg1 : Forall (legit x) q1).
    { apply Forall_forall. intros c' Hc'. apply in_remove_seq in Hc'.
      eapply Forall_forall in Hlg; [eassumption | apply Hc']. }
    split; [constructor|split].
    - rewrite Hq. destruct cancel; [apply nodup_remove_seq|]; apply nodup_remove_seq, Hnd.
    - apply Forall_forall. intros c' Hc'. eapply Forall_forall in Hlg1; [eassumption | apply Hsub, Hc'].
    - rewrite F1. apply (i_stop x w HI).
    - rewrite F6. apply (i_rs x w HI).
    - rewrite F4. apply (i_hooks x w HI).
    - rewrite F5. apply (i_rd x w HI).
    - rewrite F2. apply (i_sig x w HI).
    - rewrite F3. apply (i_flag x w HI).
    - rewrite Hre'. exact Hre.
    - rewrite F7. apply (i_junk x w HI).
    - rewrite F8. apply (i_saved x w HI).
    - rewrite F9. apply (i_tc x w HI).
    - exact Hst.
    - rewrite Hrun. exact Hph.
    - rewrite Hrun. exact Hlive.
    - exact Hearly.
    - (* the token of c has moved from the queue to the log; the timeout call, if cancelled, was not counted *)
      rewrite Hran, Hq. etransitivity; [|exact (i_perm x w HI)].
      etransitivity; [|apply (perm_pop _ c _ _ Hnd Hin)].
      destruct cancel; [|reflexivity]. rewrite filter_nt_remove_timeout; [reflexivity|].
      intros c' Hc' Hs'. eapply Forall_forall in Hlg1; [|exact Hc']. destruct Hlg1 as [Hact _].
      unfold tokc. rewrite (Hact Hs'). reflexivity.
    - apply (i_ht x w HI).
    - intros c' Hc'. apply Hsub, in_remove_seq in Hc'. apply Hc'.
    - eapply Nat.le_lt_trans; [|apply (remove_seq_length_lt _ c Hin)]. fold q1. rewrite Hq.
      destruct cancel; [apply remove_seq_length | apply Nat.le_refl].
  Qed.

  Lemma inv_ends w w' c (cancel : bool) :
    Inv x w -> In c (queue (w_r w)) ->
    (forall c', In c' (queue (w_r w)) -> dc_time c <= dc_time c') ->
    (E w <> [] -> dc_time c = mstar x) ->
    tokc c <= 2 ->
    moves w w' ((if cancel then remove_seq (c_s x) else fun q => q) (remove_seq (dc_seq c) (queue (w_r w))))
          (tokc c) (w_reentry w) false ->
    st_ok x (queue (w_r w')) (E w ++ [tokc c]) (w_sp w') ->
    stepped w w' c.
  Proof.
    intros HI Hin Hmin HE Hk Hm Hst.
    destruct (legit_ev x c) as (t & Hev & Ht); [eapply Forall_forall; [apply (i_legit x w HI) | exact Hin] | exact Hk |].
    assert (t = estar x) by (apply (first_time x w c HI Hmin HE t Hev Ht)). subst t.
    assert (HE' : E w' = E w ++ [tokc c]).
    { destruct Hm as (_ & _ & Hran & _). unfold E. rewrite Hran, crash_toks_app. unfold crash_toks at 2. cbn [filter].
      apply Nat.leb_le in Hk. rewrite Hk. reflexivity. }
    split; [intros _; exact Ht|].
    apply (inv_popped w w' c cancel _ _ HI Hin Hm (i_re x w HI)); rewrite ?HE'.
    - exact Hst.
    - discriminate.
    - right. intro H. exact (app_cons_not_nil _ _ _ (eq_sym H)).
    - intros k Hk'. apply in_app_or in Hk' as [Hk'|[<-|[]]]; [apply (i_early x w HI), Hk' | exact Hev].
  Qed.

  Lemma inv_inert w w' c re' :
    Inv x w -> In c (queue (w_r w)) -> (E w <> [] -> dc_time c = mstar x) -> 10 <= tokc c ->
    moves w w' (remove_seq (dc_seq c) (queue (w_r w))) (tokc c) re' (running (w_r w)) ->
    w_sp w' = w_sp w -> reentry_okb (c_f x) re' = true ->
    stepped w w' c.
  Proof.
    intros HI Hin HE Hk Hm Hsp Hre.
    assert (HE' : E w' = E w).
    { destruct Hm as (_ & _ & Hran & _). unfold E. rewrite Hran, crash_toks_app. unfold crash_toks at 2. cbn [filter].
      destruct (Nat.leb_spec (tokc c) 2); [lia | apply app_nil_r]. }
    assert (Hcs : c_s x <> dc_seq c).
    { intro Hs. pose proof (i_legit x w HI) as Hl. eapply Forall_forall in Hl; [|exact Hin].
      destruct Hl as [Hact _]. unfold tokc in Hk. rewrite (Hact (eq_sym Hs)) in Hk.
      exact (Nat.nle_succ_0 _ Hk). }
    split; [rewrite HE'; exact HE|].
    apply (inv_popped w w' c false _ _ HI Hin Hm Hre); rewrite ?HE', ?Hsp.
    - destruct Hm as (_ & Hq & _). rewrite Hq.
      eapply st_ok_ext; [apply (i_st x w HI) | apply seq_in_remove_other, Hcs | reflexivity | reflexivity].
    - intro Hr. destruct (i_phase x w HI Hr) as (He & Hs & Hpres).
      split; [exact He|]. split; [exact Hs|].
      destruct Hm as (_ & Hq & _). rewrite Hq.
      intros k t Hev. destruct (Hpres k t Hev) as [c' [Hc' [Hk' Ht]]].
      exists c'. split; [|split; assumption].
      apply in_remove_seq. split; [exact Hc'|]. intro Hseq.
      assert (c' = c) by (apply (nodup_seq_inj _ _ _ (i_nodup x w HI)); assumption).
      subst c'. apply ev_time_le2 in Hev. lia.
    - apply (i_live x w HI).
    - apply (i_early x w HI).
  Qed.

  Lemma inert_ok w c nw orc' :
    Inv x w -> In c (queue (w_r w)) -> (E w <> [] -> dc_time c = mstar x) ->
    (exists t, dc_act c = ANoop t) \/ (exists t o, dc_act c = ATry t o) -> 10 <= tokc c ->
    stepped w (exec_call inn c (popw c nw orc' w)) c.
  Proof.
    intros HI Hin HE Hact Hk.
    destruct (exec_inert w c nw orc' (i_flag x w HI) Hact) as (re' & Hre' & Hm & Hsp).
    apply (inv_inert w _ c re' HI Hin HE Hk Hm Hsp).
    destruct Hre' as [-> | ->]; [|apply reentry_okb_snoc]; apply (i_re x w HI).
  Qed.

  Lemma exec_ok w c nw orc' :
    Inv x w -> In c (queue (w_r w)) ->
    (forall c', In c' (queue (w_r w)) -> dc_time c <= dc_time c') ->
    (E w <> [] -> dc_time c = mstar x) ->
    stepped w (exec_call inn c (popw c nw orc' w)) c.
  Proof.
    intros HI Hin Hmin HE. set (w' := exec_call inn c (popw c nw orc' w)).
    assert (Hleg : legit x c) by (eapply Forall_forall; [apply (i_legit x w HI) | exact Hin]).
    pose proof (stop_ends_running w HI) as Hh.
    destruct Hleg as [Hs_act Hleg].
    assert (Hcs : dc_act c <> ATimeout -> c_s x <> dc_seq c) by (intros Hn Hs; apply Hn, Hs_act; symmetry; exact Hs).
    destruct (dc_act c) as [|o| |tk|tk oo| |] eqn:Ha; try contradiction.
    - (* the timeout call: it was pending, so neither it nor the Deferred has been seen yet *)
      destruct Hleg as [Hc _].
      destruct (exec_timeout w c nw orc' Ha) as [Hm Hfa]. fold w' in Hm, Hfa. rewrite Hh in Hm.
      assert (Hpend : seq_in (c_s x) (queue (w_r w)) = true) by (apply seq_in_spec; eauto).
      destruct (i_st x w HI) as [_ H0 _ _ _ | Hp _ _ | Hp _ _ _]; [|congruence|congruence].
      apply (inv_ends w w' c false HI Hin Hmin HE); [unfold tokc; rewrite Ha; repeat constructor | exact Hm |].
      destruct Hm as (_ & Hq & _). rewrite Hq, Hc.
      apply StB; [apply seq_in_remove_same | | exact Hfa].
      unfold tokc. rewrite Ha, has_app. apply orb_true_r.
    - (* the function's Deferred fires *)
      destruct Hleg as [t [Hshape _]]. specialize (Hcs ltac:(discriminate)).
      pose proof (exec_fire w c nw orc' o (c_s x) Ha (i_tc x w HI)) as Hf. cbv zeta in Hf. fold w' in Hf.
      rewrite (seq_in_remove_other _ _ _ Hcs), Hh in Hf.
      assert (Htok : tokc c = 1) by (unfold tokc; rewrite Ha; reflexivity).
      destruct (i_st x w HI) as [Hp H0 H1 Hsu Hfa | Hp H0 Hfa | Hp _ H1 _]; rewrite Hp in Hf.
      + destruct Hf as [Hm Hres].
        apply (inv_ends w w' c true HI Hin Hmin HE); [rewrite Htok; repeat constructor | exact Hm |].
        destruct Hm as (_ & Hq & _). rewrite Hq, Htok.
        apply StC; [apply seq_in_remove_same | rewrite has_app, H0; reflexivity | rewrite has_app; apply orb_true_r |].
        exists t, o. split; [exact Hshape | exact (Hres Hsu Hfa)].
      + destruct Hf as [Hm Hfa'].
        apply (inv_ends w w' c false HI Hin Hmin HE); [rewrite Htok; repeat constructor | exact Hm |].
        destruct Hm as (_ & Hq & _). rewrite Hq, Htok.
        apply StB; [rewrite seq_in_remove_other; assumption | rewrite has_app, H0; reflexivity | congruence].
      + exfalso. exact (fire_once x w c o HI H1 Hin Ha).
    - (* the stop request *)
      destruct (exec_stop w c nw orc' Ha (i_stop x w HI)) as [Hm Hsp]. fold w' in Hm, Hsp.
      specialize (Hcs ltac:(discriminate)).
      assert (Htok : tokc c = 2) by (unfold tokc; rewrite Ha; reflexivity).
      apply (inv_ends w w' c false HI Hin Hmin HE); [rewrite Htok; repeat constructor | exact Hm |].
      destruct Hm as (_ & Hq & _). rewrite Hq, Hsp, Htok.
      eapply st_ok_ext; [apply (i_st x w HI) | apply seq_in_remove_other, Hcs | |]; rewrite has_app; apply orb_false_r.
    - apply (inert_ok w c nw orc' HI Hin HE); [left; eauto | unfold tokc; rewrite Ha; exact Hleg].
    - apply (inert_ok w c nw orc' HI Hin HE); [right; eauto | unfold tokc; rewrite Ha; exact Hleg].
  Qed.
End Step.

Section LoopProof.
  Variable x : ctx.
  Variable batch : bool.
  Variable inn : world -> res value exc * world.
  Hypothesis Hinn : refuses inn.

  Lemma drain_ok : forall k tm w, Inv x w ->
    (forall c, In c (queue (w_r w)) -> tm <= dc_time c) -> (E w <> [] -> tm = mstar x) ->
    Inv x (drain w_r set_r (exec_call inn) k tm w)
    /\ length (queue (w_r (drain w_r set_r (exec_call inn) k tm w))) <= length (queue (w_r w)).
  Proof.
    induction k as [|k IH]; intros tm w HI Hmin HE; simpl; [split; [exact HI | apply Nat.le_refl]|].
    destruct (pop_at tm (w_r w)) as [[c r']|] eqn:Ep; [|split; [exact HI | apply Nat.le_refl]].
    apply pop_at_spec in Ep as [Hin [<- [nw [orc' ->]]]].
    destruct (exec_ok x inn Hinn w c nw orc' HI Hin Hmin HE) as [HE1 [HI1 [Hincl Hlen]]].
    fold (popw c nw orc' w).
    destruct (IH (dc_time c) (exec_call inn c (popw c nw orc' w)) HI1) as [HI2 Hlen2].
    - intros c' Hc'. apply Hmin, Hincl, Hc'.
    - exact HE1.
    - split; [exact HI2|]. eapply Nat.le_trans; [exact Hlen2|]. apply Nat.lt_le_incl. exact Hlen.
  Qed.

  Lemma loop_ok : forall fuel w, Inv x w -> length (queue (w_r w)) < fuel ->
    exists w', loop w_r set_r (exec_call inn) batch fuel w = (LDone, w') /\ Inv x w' /\ running (w_r w') = false.
  Proof.
    induction fuel as [|fuel IH]; intros w HI Hlen; [inversion Hlen|].
    cbn [loop]. destruct (running (w_r w)) eqn:Hrun; cbn [negb].
    2:{ exists w. split; [reflexivity|]. split; assumption. }
    destruct (i_phase x w HI Hrun) as [HE0 [_ Hpres]].
    assert (Hne : queue (w_r w) <> []).
    { destruct (Hpres 0 (c_T x) eq_refl) as [c0 [Hc0 _]]. intro F. rewrite F in Hc0. exact Hc0. }
    destruct (pop_next_ok (w_r w) Hne) as (c & nw & orc' & -> & Hin & Hmin).
    assert (HEc : E w <> [] -> dc_time c = mstar x) by (intro H; congruence).
    destruct (exec_ok x inn Hinn w c nw orc' HI Hin Hmin HEc) as [HE1 [HI1 [Hincl Hlen1]]].
    fold (popw c nw orc' w). cbv zeta.
    set (w1 := exec_call inn c (popw c nw orc' w)) in *.
    destruct batch.
    - destruct (drain_ok (length (remove_seq (dc_seq c) (queue (w_r w)))) (dc_time c) w1 HI1) as [HI2 Hlen2].
      + intros c' Hc'. apply Hmin, Hincl, Hc'.
      + exact HE1.
      + cbn [queue]. apply IH; [exact HI2|].
        eapply Nat.le_lt_trans; [exact Hlen2|]. eapply Nat.lt_le_trans; [exact Hlen1|].
        apply Nat.lt_succ_r. exact Hlen.
    - apply IH; [exact HI1|]. eapply Nat.lt_le_trans; [exact Hlen1|].
      apply Nat.lt_succ_r. exact Hlen.
  Qed.
End LoopProof.

Fixpoint mk_extras (n : time) (s i : nat) (ds : list (time * option bool)) : list call :=
  match ds with
  | [] => []
  | d :: r => mkCall (n + fst d) s (extra_action i (snd d)) :: mk_extras n (S s) (S i) r
  end.

Lemma schedule_extras_eq : forall ds i (r : rtor) st sg fl sp ran re,
  schedule_extras i ds (mkW r st sg fl sp ran re) =
  mkW (mkReactor (now r) (length ds + nextseq r) (queue r ++ mk_extras (now r) (nextseq r) i ds) (hooks r)
                 (readers r) (running r) (really_stopped r) (oracle r)) st sg fl sp ran re.
Proof.
  induction ds as [|d ds IH]; intros i r st sg fl sp ran re; simpl.
  - rewrite app_nil_r. destruct r; reflexivity.
  - destruct r as [rn rs rq rh rr rrun rrs ro].
    unfold later, set_r, call_later. prj. cbn [fst].
    rewrite IH. prj.
    rewrite <- app_assoc. simpl. rewrite Nat.add_succ_r. reflexivity.
Qed.

Lemma add_sels_eq : forall m j (r : rtor) st sg fl sp ran re,
  add_sels j m (mkW r st sg fl sp ran re) =
  mkW (mkReactor (now r) (nextseq r) (queue r) (hooks r) (readers r ++ map tok_sel (seq j m)) (running r)
                 (really_stopped r) (oracle r)) st sg fl sp ran re.
Proof.
  induction m as [|m IH]; intros j r st sg fl sp ran re; simpl.
  - rewrite app_nil_r. destruct r; reflexivity.
  - destruct r as [rn rs rq rh rr rrun rrs ro].
    unfold set_r, add_reader, set_readers. prj.
    rewrite IH. prj.
    rewrite <- app_assoc. reflexivity.
Qed.

Lemma mk_extras_seqs n s i ds : map dc_seq (mk_extras n s i ds) = seq s (length ds).
Proof. revert s i; induction ds as [|d ds IH]; intros s i; simpl; [reflexivity|]. rewrite IH. reflexivity. Qed.

Lemma mk_extras_toks n s i ds : map tokc (mk_extras n s i ds) = map tok_extra (seq i (length ds)).
Proof.
  revert s i; induction ds as [|d ds IH]; intros s i; simpl; [reflexivity|]. rewrite IH.
  destruct d as [d [o|]]; reflexivity.
Qed.

Lemma mk_extras_length n s i ds : length (mk_extras n s i ds) = length ds.
Proof. revert s i; induction ds as [|d ds IH]; intros s i; simpl; [reflexivity|]. rewrite IH. reflexivity. Qed.

Lemma loop_stopped inn batch fuel w : running (w_r w) = false ->
  loop w_r set_r (exec_call inn) batch fuel w = (LDone, w).
Proof. intro H. destruct fuel; simpl; rewrite H; reflexivity. Qed.

(* a run() tried from inside the function is refused: nothing changes *)
Lemma inner_refused iters batch : refuses (inner_run iters batch).
Proof. intros w H. unfold inner_run, guarded. rewrite H. reflexivity. Qed.

(* the attempts the function makes itself, one after the other *)
Lemma try_all_eq inn (Hinn : refuses inn) : forall l w, w_flag w = true ->
  fold_left (fun w o => try_reenter inn o w) l w = set_reentry (w_reentry w ++ map (fun _ => true) l) w.
Proof.
  induction l as [|o l IH]; intros w Hw; simpl.
  - rewrite app_nil_r. destruct w; reflexivity.
  - unfold try_reenter at 2. rewrite (Hinn w Hw). simpl is_reentry.
    rewrite IH by (destruct w; exact Hw).
    destruct w as [r st sg fl sp ran re]. unfold set_reentry. prj.
    rewrite <- app_assoc. reflexivity.
Qed.

(* the pieces of the queue after the function has been called *)
Definition q_stop (n : time) (s : nat) (f : fn) : list call :=
  match f_stop f with Some st => [mkCall (n + st) s AStopReq] | None => [] end.
Definition q_fire (n : time) (s : nat) (f : fn) : list call :=
  match f_shape f with Later t o => [mkCall (n + t) s (AFire o)] | _ => [] end.
Definition sig_fn (f : fn) (sg : sigtab) : sigtab :=
  match f_setsig f with Some (s, h) => setsig s h sg | None => sg end.
Definition is_sync (f : fn) : bool := match f_shape f with Sync _ _ => true | _ => false end.

(* the delayed calls scheduled by the start-up hooks that were registered before run() *)
Fixpoint hook_calls (n : time) (s j : nat) (hs : list hook) : list call :=
  match hs with
  | [] => []
  | HSched d :: r => mkCall (n + d) s (ANoop (tok_hook j)) :: hook_calls n (S s) (S j) r
  | _ :: r => hook_calls n s (S j) r
  end.

Lemma hook_calls_seqs n hs : forall s j, map dc_seq (hook_calls n s j hs) = seq s (length (hook_calls n s j hs)).
Proof.
  induction hs as [|[|d|] hs IH]; intros s j; simpl; [reflexivity|apply IH| |apply IH]. rewrite IH. reflexivity.
Qed.

Lemma hook_calls_toks n hs : forall s j, map tokc (hook_calls n s j hs) = hook_tokens j hs.
Proof.
  induction hs as [|[|d|] hs IH]; intros s j; simpl; [reflexivity|apply IH| |apply IH]. rewrite IH. reflexivity.
Qed.

Lemma hook_tokens_ge hs : forall j t, In t (hook_tokens j hs) -> 10 <= t.
Proof.
  induction hs as [|[|d|] hs IH]; intros j t; simpl; [intros []|apply IH| |apply IH].
  intros [<-|H]; [unfold tok_hook; lia | eapply IH; exact H].
Qed.

Record Post (x : ctx) (wl : world) : Prop := {
  po_run : running (w_r wl) = false;
  po_hooks : hooks (w_r wl) = [];
  po_rs : really_stopped (w_r wl) = false;
  po_flag : w_flag wl = true;
  po_junk : sp_junk (w_sp wl) = [];
  po_saved : sp_saved (w_sp wl) = c_saved x;
  po_rd : readers (w_r wl) = c_rd x;
  po_re : reentry_okb (c_f x) (w_reentry wl) = true;
  po_perm : Permutation (filter nt (w_ran wl) ++ filter nt (map tokc (queue (w_r wl))) ++ c_rd x)
                        (c_ht x ++ sched_tokens (c_f x));
  (* the timeout call is left pending only if nothing was recorded *)
  po_own : forall c, In c (queue (w_r wl)) -> tokc c = 0 -> get_result (w_sp wl) = Raised ENoResult
}.

Lemma inv_post x wl : Inv x wl -> running (w_r wl) = false -> Post x wl.
Proof.
  intros HI Hr. constructor.
  - exact Hr.
  - apply (i_hooks x wl HI).
  - apply (i_rs x wl HI).
  - apply (i_flag x wl HI).
  - apply (i_junk x wl HI).
  - apply (i_saved x wl HI).
  - apply (i_rd x wl HI).
  - apply (i_re x wl HI).
  - apply (i_perm x wl HI).
  - intros c Hc Ht. pose proof (i_legit x wl HI) as Hl.
    eapply Forall_forall in Hl; [|exact Hc]. apply legit_tok0 in Hl; [|exact Ht].
    assert (Hp : seq_in (c_s x) (queue (w_r wl)) = true) by (apply seq_in_spec; exists c; split; assumption).
    destruct (i_st x wl HI) as [_ _ _ Hs Hf | Hp' _ _ | Hp' _ _ _]; try congruence.
    unfold get_result. rewrite Hf, Hs. reflexivity.
Qed.

Fixpoint hook_acts (j : nat) (hs : list hook) : list action :=
  match hs with [] => [] | h :: r => AHook j h :: hook_acts (S j) r end.

Lemma hook_acts_length hs : forall j, length (hook_acts j hs) = length hs.
Proof. induction hs as [|h hs IH]; intro j; simpl; [reflexivity|]. rewrite IH. reflexivity. Qed.

Lemma hook_calls_length_le n hs : forall s j, length (hook_calls n s j hs) <= length hs.
Proof.
  induction hs as [|h hs IH]; intros s j; [apply Nat.le_refl|].
  destruct h as [|d|]; simpl.
  - apply Nat.le_le_succ_r. apply IH.
  - apply le_n_S. apply IH.
  - apply Nat.le_le_succ_r. apply IH.
Qed.

Lemma seqs_app (q1 q2 : list call) s s2 :
  map dc_seq q1 = seq s (length q1) -> s2 = length q1 + s -> map dc_seq q2 = seq s2 (length q2) ->
  map dc_seq (q1 ++ q2) = seq s (length (q1 ++ q2)).
Proof. intros H1 -> H2. rewrite map_app, app_length, seq_app, H1, H2, (Nat.add_comm s). reflexivity. Qed.

Lemma legit_inert x c : 10 <= tokc c -> dc_seq c <> c_s x -> legit x c.
Proof.
  unfold legit, tokc. intros Ht Hs. split; [intro Hseq; contradiction|].
  destruct (dc_act c); simpl in Ht; try exact Ht; exfalso; unfold tok_timeout, tok_fire, tok_stop in Ht; lia.
Qed.

(* run() on a reactor at clock n, next handle sq, oracle orc, signal table sg (saved: SV), attempts so far re,
   start-up hooks hs.  w_hook, w_pre, w_after are the closed forms of the world when the Spinner's own hook
   calls the function, just before the function returns, and when the loop is entered: run_function_eq is
   the point; after_inv (the loop invariant holds of w_after) and after_loop (the loop ends in a world
   satisfying Post) are what the rest uses. *)
Section AfterFunction.
  Variables (n T : time) (f : fn) (sq : nat) (orc : list nat) (sg SV : sigtab) (re : list bool) (iters : nat)
            (batch : bool) (hs : list hook).

  Definition timeout_call : call := mkCall (n + T) sq ATimeout.
  Definition n_extras := length (f_extras f).
  Definition hook_queue : list call := hook_calls n (S sq) 0 hs.   (* scheduled by the start-up hooks *)
  Definition first_handle := length hook_queue + S sq.             (* the next handle when the function is called *)
  Definition running0 : bool := negb (stopped_early hs).           (* still running when the function is called *)
  Definition s_stop := n_extras + first_handle.
  Definition s_fire := length (q_stop n s_stop f) + s_stop.
  Definition q_mid : list call := (hook_queue ++ mk_extras n first_handle 0 (f_extras f)) ++ q_stop n s_stop f.
  Definition q_rest : list call := q_mid ++ q_fire n s_fire f.
  Definition sel_tokens : list nat := map tok_sel (seq 0 (f_sels f)).
  Definition attempts : list bool := re ++ map (fun _ => true) (f_reenter f).

  (* the world in which the callWhenRunning hook calls the function *)
  Definition w_hook : world :=
    mkW (mkReactor n first_handle (timeout_call :: hook_queue) [] [] running0 false orc) SFake sg true
        (mkSp None None [] true (Some sq) SV) [] re.

  (* ... and just before the function returns *)
  Definition w_pre : world :=
    mkW (mkReactor n s_fire (timeout_call :: q_mid) [] sel_tokens
                   (if f_stop_now f then false else running0) false orc) SFake (sig_fn f sg) true
        (mkSp None None [] true (Some sq) SV) [] attempts.

  Definition w_after : world :=
    match f_shape f with
    | Sync _ o =>
        mkW (mkReactor n s_fire q_rest [] sel_tokens false false orc) SFake (sig_fn f sg) true
            (mkSp (match o with Succeed v => Some v | Fail _ => None end)
                  (match o with Succeed _ => None | Fail e => Some (EUser e) end)
                  [] false (Some sq) SV) [] attempts
    | _ =>
        mkW (mkReactor n (length (q_fire n s_fire f) + s_fire) (timeout_call :: q_rest) [] sel_tokens
                       (if f_stop_now f then false else running0) false orc)
            SFake (sig_fn f sg) true (mkSp None None [] true (Some sq) SV) [] attempts
    end.

  Lemma q_seqs : map dc_seq q_rest = seq (S sq) (length q_rest).
  Proof.
    unfold q_rest, q_mid.
    apply seqs_app with (s2 := s_fire).
    -
      apply seqs_app with (s2 := s_stop).
      + apply seqs_app with (s2 := first_handle).
        * apply hook_calls_seqs.
        * reflexivity.
        * rewrite mk_extras_seqs, mk_extras_length. reflexivity.
      + unfold s_stop, n_extras, first_handle. rewrite app_length, mk_extras_length. lia.
      + unfold q_stop. destruct (f_stop f); reflexivity.
    - unfold s_fire, s_stop, n_extras, first_handle. rewrite !app_length, mk_extras_length. lia.
    - unfold q_fire. destruct (f_shape f); reflexivity.
  Qed.

  Lemma q_rest_seqs c : In c q_rest -> sq < dc_seq c.
  Proof. intro H. apply (in_map dc_seq) in H. rewrite q_seqs in H. apply in_seq in H. apply H. Qed.

  Lemma remove_tmo : remove_seq sq (timeout_call :: q_rest) = q_rest.
  Proof.
    unfold remove_seq. simpl. rewrite Nat.eqb_refl. simpl. fold (remove_seq sq q_rest).
    apply remove_seq_notin. intro H. apply in_map_iff in H as [c [Hs Hc]].
    apply q_rest_seqs in Hc. lia.
  Qed.

  (* the last step of run_function, which depends on what the function returns *)
  Definition shape_step (w : world) : world :=
    match f_shape f with
    | Sync _ o => stop_reactor (got o w)
    | Later t o => later t (AFire o) w
    | Never => w
    end.

  Lemma run_function_eq : run_function (inner_run iters batch) f w_hook = w_after.
  Proof.
    transitivity (shape_step w_pre).
    - unfold run_function. cbv zeta. apply (f_equal shape_step).
      unfold w_hook.
      rewrite schedule_extras_eq. prj.
      rewrite add_sels_eq. prj.
      unfold w_pre, q_mid, sel_tokens, attempts, sig_fn, s_fire, s_stop, q_stop, n_extras.
      destruct f as [shape extras sels stop stop_now reenter setsig].
      cbn [f_shape f_extras f_sels f_stop f_stop_now f_reenter f_setsig].
      destruct stop as [st|]; [|rewrite app_nil_r]; destruct setsig as [[ss hh]|], stop_now.
      all: rewrite (try_all_eq _ (inner_refused iters batch)) by reflexivity.
      all: reflexivity.
    - pose proof remove_tmo as Hrm. unfold shape_step, w_after, q_rest, q_fire in *.
      destruct (f_shape f) as [how o|t o|].
      + (* a synchronous result: the timeout call, at the head of the queue, is pending and gets cancelled *)
        rewrite app_nil_r in *.
        unfold w_pre, got, timeout_pending. prj.
        simpl existsb. rewrite Nat.eqb_refl. simpl orb. cbv iota.
        unfold cancel_timeout, cancel, set_queue, set_r. prj.
        rewrite Hrm. destruct o; reflexivity.
      + unfold w_pre, later, call_later, set_r. prj. cbn [fst]. reflexivity.
      + rewrite app_nil_r. reflexivity.
  Qed.

  Definition run_ctx : ctx := mkCtx n T f sq (sig_fn f sg) SV sel_tokens (hook_tokens 0 hs).

  Lemma q_all_nodup : NoDup (map dc_seq (timeout_call :: q_rest)).
  Proof. cbn [map timeout_call dc_seq]. rewrite q_seqs. apply (seq_NoDup (S (length q_rest)) sq). Qed.

  Lemma q_all_legit : Forall (legit run_ctx) (timeout_call :: q_rest).
  Proof.
    constructor; [split; [reflexivity | split; reflexivity]|].
    apply Forall_forall. intros c Hc.
    assert (Hs : dc_seq c <> c_s run_ctx) by (apply q_rest_seqs in Hc; simpl; lia).
    unfold q_rest, q_mid in Hc.
    apply in_app_or in Hc as [Hc|Hc]; [apply in_app_or in Hc as [Hc|Hc]; [apply in_app_or in Hc as [Hc|Hc]|]|].
    - apply legit_inert; [|exact Hs]. apply (in_map tokc) in Hc.
      unfold hook_queue in Hc. rewrite hook_calls_toks in Hc.
      apply hook_tokens_ge in Hc. exact Hc.
    - apply legit_inert; [|exact Hs]. apply (in_map tokc) in Hc. rewrite mk_extras_toks in Hc.
      apply in_map_iff in Hc as [j [<- _]]. unfold tok_extra. lia.
    - split; [intro Hseq; contradiction|].
      unfold q_stop in Hc. destruct (f_stop f) as [st|] eqn:Es; simpl in Hc; [|destruct Hc].
      destruct Hc as [<-|[]]. simpl. exists st. split; [exact Es | reflexivity].
    - split; [intro Hseq; contradiction|].
      unfold q_fire in Hc. destruct (f_shape f) as [|t o|] eqn:Es; simpl in Hc; try destruct Hc as [<-|[]]; try destruct Hc.
      simpl. exists t. split; [exact Es | reflexivity].
  Qed.

  Lemma q_rest_nt : ~ In tok_timeout (map tokc q_rest).
  Proof.
    intro H. apply in_map_iff in H as [c [Ht Hc]].
    pose proof q_all_legit as Hl. inversion Hl as [|? ? _ Hl']; subst.
    eapply Forall_forall in Hl'; [|exact Hc]. apply legit_tok0 in Hl'; [|exact Ht].
    apply q_rest_seqs in Hc. simpl in Hl'. lia.
  Qed.

  Lemma q_rest_toks : filter nt (map tokc q_rest) ++ sel_tokens = hook_tokens 0 hs ++ sched_tokens f.
  Proof.
    rewrite (filter_nt_id _ q_rest_nt). unfold q_rest, q_mid, sched_tokens, sel_tokens, hook_queue.
    rewrite !map_app, mk_extras_toks, hook_calls_toks.
    unfold q_stop, q_fire. destruct (f_stop f), (f_shape f); simpl; rewrite <- ?app_assoc; reflexivity.
  Qed.

  Lemma sel_tokens_nt : ~ In tok_timeout sel_tokens.
  Proof. unfold sel_tokens. intro H. apply in_map_iff in H as [j [Hj _]]. discriminate Hj. Qed.

  Lemma q_all_present : present run_ctx (timeout_call :: q_rest).
  Proof.
    intros k t Hev. simpl in Hev. destruct k as [|[|[|k]]]; simpl in Hev.
    - injection Hev as <-. exists timeout_call. split; [left; reflexivity|]. split; reflexivity.
    - destruct (f_shape f) as [|t' o|] eqn:Es; try discriminate. injection Hev as <-.
      exists (mkCall (n + t') s_fire (AFire o)). split; [|split; reflexivity].
      right. unfold q_rest. apply in_or_app. right. unfold q_fire. rewrite Es. left; reflexivity.
    - exists (mkCall (n + t) s_stop AStopReq). split; [|split; reflexivity].
      right. unfold q_rest, q_mid. apply in_or_app. left.
      apply in_or_app. right. unfold q_stop. rewrite Hev.
      left; reflexivity.
    - discriminate.
  Qed.

  Lemma attempts_ok : forallb (fun b => b) re = true -> reentry_okb f attempts = true.
  Proof.
    intro H. unfold reentry_okb, attempts. rewrite forallb_app, H, app_length, map_length. simpl.
    apply andb_true_iff. split; [|apply Nat.leb_le; lia].
    induction (f_reenter f) as [|o l IH]; simpl; [reflexivity | exact IH].
  Qed.

  Lemma w_after_async : is_sync f = false ->
    w_after = mkW (mkReactor n (length (q_fire n s_fire f) + s_fire) (timeout_call :: q_rest) [] sel_tokens
                             (negb (f_stop_now f || stopped_early hs)) false orc)
                  SFake (sig_fn f sg) true (mkSp None None [] true (Some sq) SV) [] attempts.
  Proof.
    unfold w_after, running0, is_sync. destruct (f_shape f); [discriminate| |]; intros _;
      destruct (f_stop_now f), (stopped_early hs); reflexivity.
  Qed.

  Lemma after_inv : forallb (fun b => b) re = true -> is_sync f = false ->
    f_stop_now f || stopped_early hs = false -> Inv run_ctx w_after.
  Proof.
    intros Hre0 Hsy Hse. rewrite (w_after_async Hsy), Hse. constructor; unfold E; prj; try reflexivity.
    - exact q_all_nodup.
    - exact q_all_legit.
    - exact (attempts_ok Hre0).
    - apply StA; try reflexivity. simpl. rewrite Nat.eqb_refl. reflexivity.
    - intros _. split; [reflexivity|]. split; [reflexivity|]. exact q_all_present.
    - left; reflexivity.
    - intros k [].
    - simpl. rewrite q_rest_toks. apply Permutation_refl.
    - simpl. apply hook_tokens_ge.
  Qed.

  Definition fuel0 : nat := 1 + length (hook_acts 0 hs ++ [ARunFunction T f]) + length (f_extras f) + 4.

  Lemma after_loop : forallb (fun b => b) re = true ->
    exists wl, loop w_r set_r (exec_call (inner_run iters batch)) batch fuel0 w_after = (LDone, wl)
      /\ Post run_ctx wl /\ allowed (stopped_early hs) T f (w_ran wl) (get_result (w_sp wl)) = true.
  Proof.
    intro Hre0. destruct (is_sync f) eqn:Hsy; [|destruct (f_stop_now f || stopped_early hs) eqn:Hse].
    - (* the function returned a result synchronously *)
      unfold is_sync in Hsy. destruct (f_shape f) as [how o| |] eqn:Es; try discriminate.
      eexists. unfold w_after. rewrite Es, loop_stopped by reflexivity.
      split; [reflexivity|]. split.
      + constructor; try reflexivity; prj.
        * exact (attempts_ok Hre0).
        * simpl. rewrite q_rest_toks. apply Permutation_refl.
        * intros c Hc Ht. exfalso. apply q_rest_nt. apply in_map_iff. eauto.
      + unfold allowed. rewrite Es. apply result_eqb_spec. destruct o; reflexivity.
    -
      eexists. rewrite (w_after_async Hsy), Hse, loop_stopped by reflexivity.
      split; [reflexivity|]. split.
      + constructor; try reflexivity; prj.
        * exact (attempts_ok Hre0).
        * simpl. rewrite q_rest_toks. apply Permutation_refl.
      + unfold allowed. rewrite Hse. unfold is_sync in Hsy.
        destruct (f_shape f); [discriminate| |]; reflexivity.
    - (* the reactor spins until one of the three events ends the run *)
      destruct (loop_ok run_ctx batch (inner_run iters batch) (inner_refused iters batch) fuel0 _ (after_inv Hre0 Hsy Hse))
        as [wl [El [HI Hrunl]]].
      { (* at most 1 + |hs| + |extras| + 2 calls are pending *)
        rewrite (w_after_async Hsy). prj.
        pose proof (hook_calls_length_le n hs (S sq) 0) as Hh. fold hook_queue in Hh.
        assert (H2 : length (q_stop n s_stop f) <= 1) by (unfold q_stop; destruct (f_stop f); simpl; lia).
        assert (H3 : length (q_fire n s_fire f) <= 1) by (unfold q_fire; destruct (f_shape f); simpl; lia).
        unfold fuel0, q_rest, q_mid. cbn [length].
        rewrite !app_length, mk_extras_length, hook_acts_length. cbn [length]. lia. }
      exists wl. split; [exact El|]. split; [exact (inv_post run_ctx wl HI Hrunl)|].
      unfold allowed. rewrite Hse. unfold is_sync in Hsy.
      assert (Hgoal : negb (Nat.eqb (length (crash_toks (w_ran wl))) 0)
                      && forallb (fun k => option_eqb Nat.eqb (ev_time T f k) (Some (earliest (events T f))))
                                 (crash_toks (w_ran wl))
                      && result_eqb (get_result (w_sp wl)) (decided f (crash_toks (w_ran wl))) = true).
      { rewrite !andb_true_iff. split; [split|].
        - destruct (i_live _ _ HI) as [H|H]; [congruence|]. unfold E in H.
          destruct (crash_toks (w_ran wl)); [congruence | reflexivity].
        - apply forallb_forall. intros k Hk. pose proof (i_early _ _ HI k Hk) as He.
          change (ev_time T f k = Some (estar run_ctx)) in He. rewrite He. exact (Nat.eqb_refl _).
        - apply result_eqb_spec. exact (st_decided _ _ _ _ (i_st _ _ HI)). }
      destruct (f_shape f); [discriminate| |]; exact Hgoal.
  Qed.
End AfterFunction.

Definition setsigs (kvs t : sigtab) : sigtab := fold_left restore_step kvs t.

(* every saved handler that can be installed is put back; one that getsignal() reported as None is skipped *)
Lemma getsig_restore (g : nat -> nat) : forall L t s, In s L -> g s <> h_none ->
  getsig s (setsigs (map (fun s => (s, g s)) L) t) = g s.
Proof.
  induction L as [|a L IH] using rev_ind; intros t s Hin Hg; [destruct Hin|].
  unfold setsigs. rewrite map_app, fold_left_app. simpl. unfold restore_step at 1. simpl.
  destruct (Nat.eqb a s) eqn:Ea.
  - apply Nat.eqb_eq in Ea. subst.
    destruct (Nat.eqb (g s) h_none) eqn:En; [apply Nat.eqb_eq in En; congruence|].
    simpl. rewrite Nat.eqb_refl. reflexivity.
  - assert (Hin' : In s L).
    { apply in_app_or in Hin as [Hin|[Hin|[]]]; [exact Hin|]. subst. rewrite Nat.eqb_refl in Ea. discriminate. }
    destruct (Nat.eqb (g a) h_none); [|simpl; rewrite Ea]; apply IH; assumption.
Qed.

(* table obligations (Gen/Spinnertabs.v is printed from the live code) *)
Lemma tab_iterations : spinner_iterations = 0.
Proof. reflexivity. Qed.

Lemma tab_preserved : forall s, In s reactor_signals -> In s preserved_signals.
Proof.
  assert (H : forallb (fun s => existsb (Nat.eqb s) preserved_signals) reactor_signals = true) by reflexivity.
  intros s Hs. rewrite forallb_forall in H. specialize (H s Hs).
  apply existsb_exists in H as [y [Hy E]].
  apply Nat.eqb_eq in E. subst. exact Hy.
Qed.

Record Idle (w : world) : Prop := {
  id_run : running (w_r w) = false;
  id_q : queue (w_r w) = [];
  id_rd : readers (w_r w) = [];
  id_hk : hooks (w_r w) = [];
  id_rs : really_stopped (w_r w) = false;
  id_flag : w_flag w = false
}.

Definition sig_run (sg : sigtab) : sigtab := fold_left (fun t s => setsig s h_reactor t) reactor_signals sg.
Definition saved_of (sg : sigtab) : sigtab := map (fun s => (s, getsig s sg)) preserved_signals.

Definition finish inn (real : stopfn) (e : loop_end) (wl : world) : res value exc * world :=
  let w := restore_signals (set_stop real wl) in
  match e with
  | LDone => (get_result (w_sp w), clean inn 0 w)
  | _ => (Raised EOther, w)
  end.

Lemma reg_hooks_eq : forall hs j w,
  reg_hooks j hs w = set_r (set_hooks (hooks (w_r w) ++ hook_acts j hs) (w_r w)) w.
Proof.
  induction hs as [|h hs IH]; intros j w; simpl.
  - rewrite app_nil_r. destruct w as [[] ? ? ? ? ? ?]. reflexivity.
  - rewrite IH. cbn. rewrite <- app_assoc. reflexivity.
Qed.

(* all of them fire, in registration order, before the next hook (the Spinner's own) *)
Lemma run_prehooks_eq inn a rest : forall hs j n s q hk rd run orc sg sp ran re,
  run_hooks w_r set_r (exec_hook inn) (hook_acts j hs ++ a :: rest)
    (mkW (mkReactor n s q hk rd run false orc) SFake sg true sp ran re)
  = run_hooks w_r set_r (exec_hook inn) rest
      (exec_hook inn a
         (mkW (mkReactor n (length (hook_calls n s j hs) + s) (q ++ hook_calls n s j hs) rest rd
                         (if stopped_early hs then false else run) false orc) SFake sg true sp ran re)).
Proof.
  induction hs as [|h hs IH]; intros j n s q hk rd run orc sg sp ran re.
  - simpl. rewrite app_nil_r. reflexivity.
  - simpl hook_acts. simpl app. simpl run_hooks. destruct h as [|d|].
    + unfold exec_hook at 2. unfold reactor_stop, set_r, crash, set_running, set_hooks. prj.
      rewrite IH. simpl. destruct (stopped_early hs); reflexivity.
    + unfold exec_hook at 2. unfold later, call_later, set_r, set_hooks. prj. cbn [fst].
      rewrite IH. simpl. rewrite <- app_assoc, Nat.add_succ_r. reflexivity.
    + unfold exec_hook at 2. unfold set_r, set_hooks. prj. rewrite IH. reflexivity.
Qed.

Lemma run_body_eq batch T f hs n sq orc st sg su fa spn tc sv re :
  run_body (inner_run 0 batch) 0 batch T f
    (mkW (mkReactor n sq [] (hook_acts 0 hs) [] false false orc) st sg true (mkSp su fa [] spn tc sv) [] re)
  = let '(e, wl) := loop w_r set_r (exec_call (inner_run 0 batch)) batch
                         (1 + length (hook_acts 0 hs ++ [ARunFunction T f]) + length (f_extras f) + 4)
                         (run_function (inner_run 0 batch) f (w_hook n T sq orc (sig_run sg) (saved_of sg) re hs)) in
    finish (inner_run 0 batch) st e wl.
Proof.
  transitivity
    (let '(e, wl) := loop w_r set_r (exec_call (inner_run 0 batch)) batch
                          (1 + length (hook_acts 0 hs ++ [ARunFunction T f]) + length (f_extras f) + 4)
                          (run_hooks w_r set_r (exec_hook (inner_run 0 batch)) (hook_acts 0 hs ++ [ARunFunction T f])
                             (mkW (mkReactor n (S sq) [timeout_call n T sq] (hook_acts 0 hs ++ [ARunFunction T f]) [] true false orc)
                                  SFake (sig_run sg) true (mkSp None None [] true (Some sq) (saved_of sg)) [] re)) in
     finish (inner_run 0 batch) st e wl); [reflexivity|].
  rewrite run_prehooks_eq. simpl run_hooks.
  unfold w_hook, hook_queue, first_handle, running0. destruct (stopped_early hs); reflexivity.
Qed.

Definition restored (sg0 sg' : sigtab) : Prop :=
  forall s, In s preserved_signals -> getsig s sg0 <> h_none -> getsig s sg' = getsig s sg0.

Lemma post_finish x inn real wl : Post x wl -> ~ In tok_timeout (c_rd x) ->
  exists w3, finish inn real LDone wl = (get_result (w_sp wl), w3)
    /\ Idle (set_flag false w3) /\ w_stop w3 = real /\ w_ran w3 = w_ran wl
    /\ reentry_okb (c_f x) (w_reentry w3) = true
    /\ Permutation (filter nt (w_ran w3) ++ filter nt (sp_junk (w_sp w3))) (c_ht x ++ sched_tokens (c_f x))
    /\ (In tok_timeout (sp_junk (w_sp w3)) -> get_result (w_sp wl) = Raised ENoResult)
    /\ w_sig w3 = setsigs (c_saved x) (w_sig wl).
Proof.
  intros [Hr Hh Hrs Hfl Hj Hsv Hrd Hre Hperm Hown] Erd.
  destruct wl as [[n sq q h rd run rs orc] st sg fl [su fa jk spn tc sv] ran re]. prj. subst.
  unfold finish, clean. cbn.
  rewrite fold_cancel_eq. cbn.
  rewrite (cancel_all q q (incl_refl q)).
  eexists. split; [reflexivity|]. cbn.
  split; [constructor; reflexivity|].
  split; [reflexivity|]. split; [reflexivity|]. split; [exact Hre|].
  split; [|split; [|reflexivity]].
  - rewrite filter_app, (filter_nt_id _ Erd). exact Hperm.
  - intro Hin. apply in_app_or in Hin as [Hin|Hin]; [|contradiction].
    apply in_map_iff in Hin as [c [Ht Hc]]. exact (Hown c Hc Ht).
Qed.

(* a reactor at rest, driven by a Spinner that is not inside run(), with the harness's log reset *)
Definition Ready (w : world) : Prop := Idle w /\ w_ran w = [] /\ w_reentry w = [].

(* hs: the start-up hooks somebody registered on the reactor before run() is entered *)
Definition run1 (hs : list hook) (batch : bool) (T : time) (f : fn) (w : world) :=
  run spinner_iterations batch T f (reg_hooks 0 hs w).

(* the harness takes back hooks that never fired (a refused run does not start the reactor) *)
Definition unhook (w : world) : world := set_r (set_hooks [] (w_r w)) w.

Theorem run1_spec hs batch T f w : Ready w ->
  exists r w', run1 hs batch T f w = (r, w') /\ Idle (unhook w') /\ w_stop w' = w_stop w
    /\ restored (w_sig w) (w_sig w')
    /\ match sp_junk (w_sp w) with
       | [] => allowed (stopped_early hs) T f (w_ran w') r = true
               /\ reentry_okb f (w_reentry w') = true
               /\ Permutation (filter nt (w_ran w') ++ filter nt (sp_junk (w_sp w'))) (hook_tokens 0 hs ++ sched_tokens f)
               /\ (In tok_timeout (sp_junk (w_sp w')) -> r = Raised ENoResult)
       | _ :: _ => r = Raised EStaleJunk /\ w' = reg_hooks 0 hs w
       end.
Proof.
  intros [[Hrun Hq Hrd Hhk Hrs Hfl] [Hran Hre0]]. unfold run1. rewrite tab_iterations.
  destruct w as [[n sq q h rd run rs orc] st sg fl [su fa jk spn tc sv] ran re]. prj. subst.
  rewrite reg_hooks_eq. unfold set_r, set_hooks. prj. cbn [app].
  unfold run, guarded. prj. cbv iota.
  unfold set_flag at 1. prj.
  destruct jk as [|j0 jr].
  - rewrite run_body_eq, run_function_eq.
    set (SG := sig_run sg). set (SV := saved_of sg). set (x := run_ctx n T f sq SG SV hs).
    destruct (after_loop n T f sq orc SG SV [] 0 batch hs eq_refl) as (wl & Hl & HP & Hal).
    unfold fuel0 in Hl. rewrite Hl.
    destruct (post_finish x (inner_run 0 batch) st wl HP (sel_tokens_nt f))
      as (w3 & -> & [H1 H2 H3 H4 H5 H6] & Hst3 & Hr & Hre & Hperm & Hown & Hsg).
    eexists; eexists. split; [reflexivity|].
    unfold set_flag in *; prj. rewrite <- Hr in Hal.
    split; [constructor; assumption || reflexivity|].
    split; [exact Hst3|]. split; [|repeat split; assumption].
    intros s Hs Hn. rewrite Hsg.
    apply (getsig_restore (fun s => getsig s sg)); assumption.
  -
    unfold run_body. prj. eexists; eexists. split; [reflexivity|]. prj.
    split; [constructor; reflexivity|].
    split; [reflexivity|]. split; [intros s _ _; reflexivity|].
    split; reflexivity.
Qed.

Lemma filter_perm {A} (p : A -> bool) l l' : Permutation l l' -> Permutation (filter p l) (filter p l').
Proof.
  induction 1; simpl.
  - constructor.
  - destruct (p x); [constructor|]; assumption.
  - destruct (p x), (p y); try reflexivity; try (constructor; reflexivity).
  - etransitivity; eassumption.
Qed.

Lemma sigs_okb_map (g g' : nat -> nat) : forall L,
  (forall s, In s L -> g s = h_none \/ g' s = g s) -> sigs_okb (map g L) (map g' L) = true.
Proof.
  induction L as [|a L IH]; intro H; simpl; [reflexivity|].
  rewrite IH by (intros s Hs; apply H; right; exact Hs). rewrite andb_true_r.
  destruct (H a (or_introl eq_refl)) as [E|E]; rewrite E; [reflexivity|]. rewrite Nat.eqb_refl. apply orb_true_r.
Qed.

Lemma preinstall_sigs pre w : length pre = length reactor_signals ->
  map (fun s => getsig s (w_sig (preinstall pre w))) reactor_signals = pre.
Proof.
  destruct pre as [|a [|b [|c [|d pre]]]]; try discriminate. intros _. reflexivity.
Qed.

Definition prepare (rs : runspec) (w : world) : world :=
  set_reentry [] (set_ran [] (install_stop (r_stop rs)
    (preinstall (r_pre rs) (if r_clear rs then clear_junk w else w)))).

Lemma prepare_spec rs w : Idle w -> wf_run rs ->
  Ready (prepare rs w)
  /\ id_of_stop (w_stop (prepare rs w)) = stop_before (id_of_stop (w_stop w)) rs
  /\ sp_junk (w_sp (prepare rs w)) = (if r_clear rs then [] else sp_junk (w_sp w))
  /\ map (fun s => getsig s (w_sig (prepare rs w))) reactor_signals = r_pre rs.
Proof.
  intros Hid Hwf. unfold prepare, install_stop, stop_before. split; [|split; [|split]].
  - destruct Hid as [H1 H2 H3 H4 H5 H6]. destruct w as [r st sg fl sp ran re].
    destruct (r_clear rs), (r_stop rs); (split; [constructor; assumption | split; reflexivity]).
  - destruct (r_stop rs) as [[|k]|]; cbn; try reflexivity. destruct (r_clear rs); reflexivity.
  - destruct (r_clear rs), (r_stop rs); reflexivity.
  - destruct (r_stop rs); cbn; apply preinstall_sigs, Hwf.
Qed.

Lemma step_ok batch w rs : Idle w -> wf_run rs ->
  let stop0 := stop_before (id_of_stop (w_stop w)) rs in
  run_okb (if r_clear rs then [] else sort_toks (sp_junk (w_sp w))) stop0 rs (fst (step batch w rs)) = true
  /\ Idle (snd (step batch w rs))
  /\ o_junk (fst (step batch w rs)) = sort_toks (sp_junk (w_sp (snd (step batch w rs))))
  /\ id_of_stop (w_stop (snd (step batch w rs))) = stop0.
Proof.
  intros Hid Hwf stop0.
  change (step batch w rs) with (let '(r, w') := run1 (r_hooks rs) batch (r_timeout rs) (r_fn rs) (prepare rs w) in
                                 (observe r w', unhook w')).
  destruct (prepare_spec rs w Hid Hwf) as (Hr3 & Hst3 & Hj3 & Hsig3). fold stop0 in Hst3. set (w3 := prepare rs w) in *.
  destruct (run1_spec (r_hooks rs) batch (r_timeout rs) (r_fn rs) w3 Hr3) as (r & w' & -> & Hid' & Hst' & Hrest & Hcase).
  cbn [fst snd]. split; [|split; [exact Hid' | split; [reflexivity | cbn; rewrite Hst'; exact Hst3]]].
  unfold run_okb. apply andb_true_iff. split.
  -
    unfold clean_okb, observe. cbn [o_running o_pending o_readers o_stop o_stopped o_sigs].
    destruct Hid' as [H1 H2 H3 _ H5 _]. cbn in H1, H2, H3, H5. rewrite H1, H2, H3, H5, Hst', Hst3.
    cbn [length negb Nat.eqb andb]. rewrite Nat.eqb_refl. cbn [andb].
    rewrite <- Hsig3. apply sigs_okb_map. intros s Hs.
    destruct (Nat.eqb (getsig s (w_sig w3)) h_none) eqn:En; [left; apply Nat.eqb_eq; exact En|].
    right. apply Hrest; [apply tab_preserved; exact Hs | apply Nat.eqb_neq; exact En].
  - assert (Hstale : (if r_clear rs then [] else sort_toks (sp_junk (w_sp w))) = sort_toks (sp_junk (w_sp w3)))
      by (rewrite Hj3; destruct (r_clear rs); reflexivity).
    rewrite Hstale. unfold observe. cbn [o_res o_reentry o_ran o_order o_junk].
    destruct (sp_junk (w_sp w3)) as [|j0 jr] eqn:Ej.
    + destruct Hcase as (Hal & Hre & Hperm & Hown). change (sort_toks []) with (@nil nat).
      rewrite Hal, Hre, (eqb_spec_refl _ nats_eqb_spec). cbn [andb]. apply andb_true_iff. split.
      * apply perm_perm_eqb. etransitivity; [|exact Hperm].
        apply Permutation_app; [symmetry; apply isort_perm | apply filter_perm; symmetry; apply isort_perm].
      * unfold own_junk_okb. cbn [o_junk o_res].
        destruct (has tok_timeout (sort_toks (sp_junk (w_sp w')))) eqn:Eh; [|reflexivity].
        apply result_eqb_spec, Hown. apply has_In in Eh.
        eapply Permutation_in; [symmetry; apply isort_perm | exact Eh].
    +
      destruct Hcase as [-> ->]. rewrite reg_hooks_eq. cbn [w_sp w_ran w_reentry set_r]. rewrite Ej.
      destruct (sort_toks (j0 :: jr)) as [|s0 sr] eqn:Es.
      * exfalso. apply (Permutation_nil_cons (l := jr) (x := j0)).
        rewrite <- Es. symmetry. apply isort_perm.
      * rewrite !(eqb_spec_refl _ nats_eqb_spec). reflexivity.
Qed.

Lemma steps_ok batch : forall rss w, Idle w -> Forall wf_run rss ->
  runs_okb (sort_toks (sp_junk (w_sp w))) (id_of_stop (w_stop w)) rss (steps batch w rss) = true.
Proof.
  induction rss as [|rs rss IH]; intros w Hid Hwf; simpl; [reflexivity|].
  inversion Hwf as [|? ? Hrs Hrest]; subst.
  destruct (step_ok batch w rs Hid Hrs) as [H1 [H2 [H3 H4]]].
  destruct (step batch w rs) as [o w'] eqn:Es. cbn [fst snd] in *.
  apply andb_true_iff. split.
  - destruct (r_clear rs); exact H1.
  - rewrite H3, <- H4. apply IH; assumption.
Qed.

Theorem model_meets_spec i : wf i -> spec_okb i (model i) = true.
Proof.
  intro Hwf. unfold spec_okb, model.
  refine (steps_ok (i_batch i) (i_runs i) (new_world (i_oracle i)) _ Hwf). constructor; reflexivity.
Qed.

Theorem clause_result hs batch T f w : Ready w -> sp_junk (w_sp w) = [] ->
  Allowed (stopped_early hs) T f (w_ran (snd (run1 hs batch T f w))) (fst (run1 hs batch T f w)).
Proof.
  intros Hr Hj. destruct (run1_spec hs batch T f w Hr) as (r & w' & -> & _ & _ & _ & Hcase). rewrite Hj in Hcase.
  apply allowed_sound, Hcase.
Qed.

Lemma events_timeout T f : In (T, Raised ETimeout) (events T f).
Proof. left. reflexivity. Qed.

Lemma events_later T f t o : f_shape f = Later t o -> In (t, result_of o) (events T f).
Proof. intro Es. unfold events. rewrite Es. right. left. reflexivity. Qed.

Lemma events_stop T f s : f_stop f = Some s -> In (s, Raised ENoResult) (events T f).
Proof. intro Es. unfold events. rewrite Es. right. apply in_or_app. right. left. reflexivity. Qed.

Lemma allowed_unique T f order r k0 :
  is_sync f = false -> f_stop_now f = false -> Allowed false T f order r ->
  (forall k t, ev_time T f k = Some t -> (forall ev, In ev (events T f) -> t <= fst ev) -> k = k0) ->
  r = decided f [k0].
Proof.
  intros Hsy Hsn Hal Hu. unfold Allowed, is_sync in *. rewrite Hsn in Hal. simpl orb in Hal.
  assert (H : crash_toks order <> [] /\ (forall k, In k (crash_toks order) -> k = k0)
              /\ r = decided f (crash_toks order)).
  { destruct (f_shape f); [discriminate| |]; destruct Hal as (Hne & Hall & Hr).
    all: split; [exact Hne|]; split; [|exact Hr].
    all: intros k Hk; destruct (Hall k Hk) as (t1 & Ht & _ & Hle); exact (Hu k t1 Ht Hle). }
  destruct H as (Hne & Hk & ->).
  assert (Hhas : forall j, has j (crash_toks order) = has j [k0]).
  { intro j. destruct (crash_toks order) as [|e0 er]; [congruence|].
    assert (e0 = k0) by (apply Hk; left; reflexivity). subst e0.
    apply eq_true_iff_eq. rewrite !has_In. split.
    - intro Hin. left. symmetry. apply Hk, Hin.
    - intros [<-|[]]. left; reflexivity. }
  unfold decided. rewrite !Hhas. reflexivity.
Qed.

(* the timings the statement names, without ties: nobody stops the reactor *)
Theorem clause_result_untied hs batch T f w r : Ready w -> sp_junk (w_sp w) = [] -> stopped_early hs = false ->
  f_stop f = None -> f_stop_now f = false -> r = fst (run1 hs batch T f w) ->
  (forall how o, f_shape f = Sync how o -> r = result_of o)
  /\ (forall t o, f_shape f = Later t o -> t < T -> r = result_of o)
  /\ (forall t o, f_shape f = Later t o -> T < t -> r = Raised ETimeout)
  /\ (f_shape f = Never -> r = Raised ETimeout).
Proof.
  intros Hr Hj He Hstop Hsn ->. pose proof (clause_result hs batch T f w Hr Hj) as Hal. rewrite He in Hal.
  repeat split.
  - intros how o Es. unfold Allowed in Hal. rewrite Es in Hal. exact Hal.
  - intros t o Es Hlt. rewrite (allowed_unique T f _ _ 1 ltac:(unfold is_sync; rewrite Es; reflexivity) Hsn Hal).
    + unfold decided. simpl. rewrite Es. reflexivity.
    + intros [|[|[|k]]] t' H Hmin; simpl in H; rewrite ?Hstop in H; try discriminate; [|reflexivity].
      injection H as <-. specialize (Hmin _ (events_later T f t o Es)). simpl in Hmin. lia.
  - intros t o Es Hlt. rewrite (allowed_unique T f _ _ 0 ltac:(unfold is_sync; rewrite Es; reflexivity) Hsn Hal).
    + reflexivity.
    + intros [|[|[|k]]] t' H Hmin; simpl in H; rewrite ?Es, ?Hstop in H; try discriminate; [reflexivity|].
      injection H as <-. specialize (Hmin _ (events_timeout T f)). simpl in Hmin. lia.
  - intros Es. rewrite (allowed_unique T f _ _ 0 ltac:(unfold is_sync; rewrite Es; reflexivity) Hsn Hal).
    + reflexivity.
    + intros [|[|[|k]]] t' H Hmin; simpl in H; rewrite ?Es, ?Hstop in H; try discriminate. reflexivity.
Qed.

