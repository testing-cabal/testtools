(* Behind Props/C08.v.  An adapter tree is a set of paths; the last layer of a path degrades a call for the result
   below it (e2o_conv_delivers), every layer above passes startTest / outcome / stopTest on unchanged
   (target_path_delivers).  A TestByTestResult sees the history with the Taggers' tags() calls injected
   (through_bytest) and is a simulation of the two-level reading of the statement (bytest_simulation). *)
From Coq Require Import Permutation.
From TT Require Import Lib.Base Lib.ListFacts Lib.Sort Model.Adapters Spec.C08 Corr.C08 Lib.EqbFacts.

Lemma text_eqb_spec a b : text_eqb a b = true <-> a = b.
Proof. apply nats_eqb_spec. Qed.

Lemma errv_eqb_spec a b : errv_eqb a b = true <-> a = b.
Proof. destruct a, b; simpl; eqb_components ltac:(first [apply Nat.eqb_eq | apply text_eqb_spec]). Qed.

Lemma dkind_eqb_spec a b : dkind_eqb a b = true <-> a = b.
Proof. destruct a, b; simpl; eqb_components ltac:(first [apply text_eqb_spec | apply nats_eqb_spec | apply errv_eqb_spec]). Qed.

Lemma detail_eqb_spec a b : detail_eqb a b = true <-> a = b.
Proof. apply pair_eqb_spec. exact text_eqb_spec. exact dkind_eqb_spec. Qed.

Lemma details_eqb_spec a b : details_eqb a b = true <-> a = b.
Proof. apply list_eqb_spec. exact detail_eqb_spec. Qed.

Lemma tkind_eqb_spec a b : tkind_eqb a b = true <-> a = b.
Proof. destruct a, b; simpl; eqb_components idtac. Qed.
Lemma ekind_eqb_spec a b : ekind_eqb a b = true <-> a = b.
Proof. destruct a, b; simpl; eqb_components idtac. Qed.
Lemma okind_eqb_spec a b : okind_eqb a b = true <-> a = b.
Proof. destruct a, b; simpl; eqb_components idtac. Qed.
Lemma exn_eqb_spec a b : exn_eqb a b = true <-> a = b.
Proof. destruct a, b; simpl; eqb_components idtac. Qed.

Lemma test_eqb_spec a b : test_eqb a b = true <-> a = b.
Proof. destruct a, b; unfold test_eqb; simpl; eqb_components ltac:(first [apply Nat.eqb_eq | apply tkind_eqb_spec]). Qed.

Lemma sum_eqb_spec {A B} (ea : A -> A -> bool) (eb : B -> B -> bool) :
  (forall a b, ea a b = true <-> a = b) -> (forall a b, eb a b = true <-> a = b) ->
  forall x y, sum_eqb ea eb x y = true <-> x = y.
Proof. intros HA HB [a|b] [a'|b']; simpl; eqb_components ltac:(first [apply HA | apply HB]). Qed.

Lemma call_eqb_spec a b : call_eqb a b = true <-> a = b.
Proof.
  destruct a, b; simpl;
    eqb_components ltac:(first [apply text_eqb_spec | apply Nat.eqb_eq | apply test_eqb_spec | apply ekind_eqb_spec
                               | apply okind_eqb_spec | apply (sum_eqb_spec _ _ errv_eqb_spec details_eqb_spec)
                               | apply (sum_eqb_spec _ _ text_eqb_spec details_eqb_spec)
                               | apply (option_eqb_spec _ details_eqb_spec)]).
Qed.

Lemma cb_eqb_spec a b : cb_eqb a b = true <-> a = b.
Proof.
  destruct a, b; unfold cb_eqb; simpl;
    eqb_components ltac:(first [apply test_eqb_spec | apply onat_eqb_spec | apply text_eqb_spec
                               | apply (option_eqb_spec _ details_eqb_spec)]).
Qed.

Lemma leaf_obs_eqb_spec a b : leaf_obs_eqb a b = true <-> a = b.
Proof.
  destruct a, b; simpl;
    eqb_components ltac:(first [apply (list_eqb_spec _ call_eqb_spec) | apply (list_eqb_spec _ cb_eqb_spec)]).
Qed.

Lemma raw_eqb_spec a b : raw_eqb a b = true <-> a = b.
Proof.
  destruct a, b; unfold raw_eqb; simpl;
    eqb_components ltac:(first [apply (list_eqb_spec _ leaf_obs_eqb_spec)
                               | apply (list_eqb_spec _ (pair_eqb_spec _ _ Nat.eqb_eq exn_eqb_spec))]).
Qed.

Lemma prefixb_app p b : prefixb p (p ++ b) = true.
Proof. induction p as [|x p IH]; simpl; [reflexivity|]. rewrite Nat.eqb_refl. exact IH. Qed.

Lemma substringb_intro p a b : substringb p (a ++ p ++ b) = true.
Proof.
  induction a as [|x a IH]; simpl.
  - destruct (p ++ b) eqn:E; simpl.
    + destruct p; [reflexivity|discriminate].
    + rewrite <- E. rewrite prefixb_app. reflexivity.
  - rewrite IH. apply orb_true_r.
Qed.

Lemma prefixb_sound p s : prefixb p s = true -> exists b, s = p ++ b.
Proof.
  revert s; induction p as [|x p IH]; intros s H; simpl in *.
  - exists s; reflexivity.
  - destruct s as [|y s]; [discriminate|].
    apply andb_true_iff in H as [H1 H2]. apply Nat.eqb_eq in H1; subst y.
    destruct (IH _ H2) as [b ->]. exists b; reflexivity.
Qed.

Lemma substringb_sound p s : substringb p s = true -> Substring p s.
Proof.
  induction s as [|y s IH]; simpl; intro H.
  - rewrite orb_false_r in H. destruct (prefixb_sound _ _ H) as [b E]. exists [], b. exact E.
  - apply orb_true_iff in H as [H|H].
    + destruct (prefixb_sound _ _ H) as [b E]. exists [], b. exact E.
    + destruct (IH H) as (a & b & ->). exists (y :: a), b. reflexivity.
Qed.

Lemma Substring_refl p : Substring p p.
Proof. exists [], []. simpl. rewrite app_nil_r. reflexivity. Qed.

Lemma Substring_wrap p x a b : Substring p x -> Substring p (a ++ x ++ b).
Proof.
  intros (u & v & ->). exists (a ++ u), (v ++ b). repeat rewrite <- app_assoc. reflexivity.
Qed.

Lemma Substring_app_r p x a : Substring p x -> Substring p (a ++ x).
Proof. intro H. rewrite <- (app_nil_r x). apply Substring_wrap. exact H. Qed.

Lemma Substring_app_l p x b : Substring p x -> Substring p (x ++ b).
Proof. intro H. apply (Substring_wrap p x [] b H). Qed.

Lemma Substring_join p x sep l : In x l -> Substring p x -> Substring p (join sep l).
Proof.
  induction l as [|y l IH]; intros Hin Hs; [destruct Hin|].
  destruct l as [|z l].
  - destruct Hin as [->|[]]. exact Hs.
  - change (join sep (y :: z :: l)) with (y ++ sep ++ join sep (z :: l)).
    destruct Hin as [->|Hin].
    + apply Substring_app_l. exact Hs.
    + apply Substring_app_r. apply Substring_app_r. apply IH; assumption.
Qed.

Lemma format_attachment_contains n t : Substring t (format_attachment n t).
Proof.
  unfold format_attachment. destruct (existsb (Nat.eqb nl) t).
  - exists (n ++ t_open ++ [nl]), ([nl] ++ t_close ++ [nl]). repeat rewrite <- app_assoc. reflexivity.
  - exists (n ++ t_open), t_close. repeat rewrite <- app_assoc. reflexivity.
Qed.

Lemma nodupb_NoDup l : nodupb l = true -> NoDup l.
Proof.
  induction l as [|x l IH]; simpl; [constructor|].
  rewrite andb_true_iff, negb_true_iff. intros [Hx Hl]. constructor; [|exact (IH Hl)].
  intro Hin. apply (existsb_eqb_In_gen _ text_eqb_spec) in Hin. congruence.
Qed.

(* so that simpl leaves `option_eqb name_eqb (Some n) special` folded, the form d2s_scan_keeps is stated in *)
Local Arguments option_eqb : simpl never.

Lemma d2s_scan_keeps special ds n t :
  NoDup (map fst ds) -> In (n, DText t) ds -> strip t <> [] ->
  let '(bin, emp, txt, sp) := d2s_scan special ds in
  if option_eqb name_eqb (Some n) special
  then sp = Some (strip t ++ [nl])
  else In (format_attachment n (strip t)) txt.
Proof.
  induction ds as [|[m k] r IH]; intros Hnd Hin Hne; [destruct Hin|].
  simpl in Hnd. inversion Hnd as [|? ? Hnotin Hnd']; subst.
  simpl. destruct (d2s_scan special r) as [[[bin emp] txt] sp] eqn:E.
  destruct Hin as [Heq|Hin].
  - injection Heq as -> ->. simpl.
    destruct (strip t) eqn:Es; [congruence|].
    destruct (option_eqb name_eqb (Some n) special); simpl; [reflexivity|left; reflexivity].
  - specialize (IH Hnd' Hin Hne).
    assert (Hmn : m <> n).
    { intro; subst m. apply Hnotin.
      change n with (fst (n, DText t)). apply in_map. exact Hin. }
    destruct (dtext k) as [tk|]; [|exact IH].
    destruct (strip tk) eqn:Etk; [exact IH|].
    destruct (option_eqb name_eqb (Some m) special) eqn:Em; simpl.
    + destruct (option_eqb name_eqb (Some n) special) eqn:En; [|exact IH].
      exfalso. destruct special as [s|]; unfold option_eqb in Em, En; [|discriminate].
      apply text_eqb_spec in Em, En. congruence.
    + destruct (option_eqb name_eqb (Some n) special); [exact IH|right; exact IH].
Qed.

Lemma details_text d sp : NoDup (map fst d) -> ContainsAll d (details_to_str d sp).
Proof.
  intros Hnd n t Hin Hne. unfold details_to_str.
  pose proof (isort_perm detail_leb d) as Hp.
  assert (Hnd' : NoDup (map fst (isort detail_leb d))).
  { eapply Permutation_NoDup; [apply Permutation_map; exact Hp|exact Hnd]. }
  assert (Hin' : In (n, DText t) (isort detail_leb d)) by (eapply Permutation_in; eassumption).
  pose proof (d2s_scan_keeps sp _ n t Hnd' Hin' Hne) as K.
  destruct (d2s_scan sp (isort detail_leb d)) as [[[bin emp] txt] spc].
  set (txt1 := if negb (is_nil txt) && negb (ends_nl (last txt [])) then txt ++ [[]] else txt).
  set (txt2 := match spc with Some s => txt1 ++ [s] | None => txt1 end).
  assert (H1 : forall x, In x txt -> In x txt2).
  { intros x Hx. assert (In x txt1).
    { unfold txt1. destruct (negb (is_nil txt) && negb (ends_nl (last txt []))); [apply in_or_app; left|]; exact Hx. }
    unfold txt2. destruct spc; [apply in_or_app; left|]; assumption. }
  assert (Hsub : exists x, In x txt2 /\ Substring (strip t) x).
  { destruct (option_eqb name_eqb (Some n) sp).
    - subst spc. exists (strip t ++ [nl]). split.
      + unfold txt2. apply in_or_app. right. left. reflexivity.
      + apply Substring_app_l. apply Substring_refl.
    - exists (format_attachment n (strip t)). split; [apply H1; exact K|apply format_attachment_contains]. }
  destruct Hsub as (x & Hx & Hs).
  do 3 apply Substring_app_r. eapply Substring_join; eassumption.
Qed.

Lemma contains_all_spec d s : contains_all d s = true <-> ContainsAll d s.
Proof.
  unfold contains_all, ContainsAll. rewrite forallb_forall. split.
  - intros H n t Hin Hne. specialize (H _ Hin). simpl in H.
    apply orb_true_iff in H as [H|H].
    + destruct (strip t); [congruence|discriminate].
    + apply substringb_sound. exact H.
  - intros H [n k] Hin. simpl. destruct k as [t| |]; try reflexivity.
    destruct (strip t) eqn:E; [reflexivity|]. rewrite <- E. apply orb_true_iff. right.
    destruct (H n t Hin) as (a & b & ->); [congruence | apply substringb_intro].
Qed.

Lemma details_ok_contains d sp : details_okb d = true -> contains_all d (details_to_str d sp) = true.
Proof.
  unfold details_okb. intros [[H _]%andb_prop _]%andb_prop.
  apply contains_all_spec. apply details_text. apply nodupb_NoDup. exact H.
Qed.

Ltac crush_refl :=
  rewrite ?(eqb_spec_refl _ test_eqb_spec), ?(eqb_spec_refl _ errv_eqb_spec), ?(eqb_spec_refl _ details_eqb_spec),
    ?(eqb_spec_refl _ text_eqb_spec), ?(eqb_spec_refl _ ekind_eqb_spec), ?(eqb_spec_refl _ okind_eqb_spec),
    ?(eqb_spec_refl _ (option_eqb_spec _ details_eqb_spec)).

Lemma e2o_conv_delivers c hc : is_bracket hc = true -> call_okb hc = true ->
  exists lc, e2o_conv c hc = [lc] /\ is_bracket lc = true /\ supports c lc = true /\ delivered_ok c hc lc = true.
Proof.
  (* e2o_conv's call is computed and checked against the same table row (Spec.C08.Delivered); the only content: the synthetic
     texts contain the text details (details_ok_contains) and a skip reason is details['reason'] *)
  intros Hb Hok.
  destruct hc as [ | | | | | t | t | k t a | t a | k t od | | ]; try discriminate Hb; clear Hb.
  - exists (StartTest t). simpl. crush_refl. auto.
  - exists (StopTest t). simpl. crush_refl. auto.
  - (* addError / addFailure / addExpectedFailure: without addExpectedFailure a success; details without
       details= as a _StringException *)
    destruct a as [e|d].
    + destruct k; simpl; destruct (c_xfail c) eqn:X; simpl.
      all: eexists; (split; [reflexivity|]); simpl.
      all: rewrite ?X; crush_refl; auto.
    + assert (Hc : contains_all d (details_to_str d (Some n_traceback)) = true)
        by (apply details_ok_contains; destruct k; exact Hok).
      destruct k; simpl; destruct (c_xfail c) eqn:X; destruct (c_details c) eqn:D; simpl.
      all: eexists; (split; [reflexivity|]); simpl.
      all: rewrite ?X, ?D; crush_refl; rewrite ?Hc; auto.
  - (* addSkip: without addSkip a success; details without details= as a reason *)
    destruct a as [r|d].
    + simpl; destruct (c_skip c) eqn:X; simpl.
      all: eexists; (split; [reflexivity|]); simpl.
      all: rewrite ?X; crush_refl; auto.
    + simpl in Hok.
      simpl; destruct (c_skip c) eqn:X; destruct (c_details c) eqn:D; simpl.
      all: eexists; (split; [reflexivity|]); simpl.
      all: rewrite ?X, ?D; crush_refl; auto.
      (* left: addSkip without details=, where the reason is made from the details *)
      repeat split. unfold skip_reason.
      destruct (lookup n_reason d) as [[r| |]|] eqn:L; simpl; crush_refl; auto.
      apply details_ok_contains. exact Hok.
  - (* addSuccess / addUnexpectedSuccess: without addUnexpectedSuccess a failure; details dropped without details= *)
    destruct k, od as [d|]; simpl; destruct (c_uxs c) eqn:X; destruct (c_details c) eqn:D; simpl.
    all: eexists; (split; [reflexivity|]); simpl.
    all: rewrite ?X, ?D; crush_refl; auto.
Qed.

Definition bracket_log (c : caps) (l : list call) : list call := bracket (target_log c l).

Lemma bracket_log_app c a b : bracket_log c (a ++ b) = bracket_log c a ++ bracket_log c b.
Proof. unfold bracket_log, target_log, bracket. rewrite !filter_app. reflexivity. Qed.

Lemma e2o_conv_noise c hc : is_bracket hc = false -> bracket (e2o_conv c hc) = [].
Proof.
  destruct hc; try discriminate; intros _; simpl.
  - destruct (c_startrun c); reflexivity.
  - destruct (c_stoprun c); reflexivity.
  - destruct (c_tags c); reflexivity.
  - destruct (c_time c); reflexivity.
  - destruct (c_progress c); reflexivity.
  - destruct (c_stop c); reflexivity.
  - destruct (c_done c); reflexivity.
Qed.

Lemma filter_flat_map_ext {A B} (p : B -> bool) (f g : A -> list B) h :
  (forall x, filter p (f x) = filter p (g x)) -> filter p (flat_map f h) = filter p (flat_map g h).
Proof. intro H. induction h as [|x h IH]; simpl; [reflexivity|]. rewrite !filter_app, H, IH. reflexivity. Qed.

Lemma flat_map_single {A} (h : list A) : flat_map (fun x => [x]) h = h.
Proof. induction h as [|x h IH]; simpl; [reflexivity|]. rewrite IH. reflexivity. Qed.

Lemma bracket_log_bracket c l : bracket_log c l = filter (supports c) (bracket l).
Proof.
  unfold bracket_log, target_log, bracket. induction l as [|x l IH]; simpl; [reflexivity|].
  destruct (supports c x) eqn:S, (is_bracket x) eqn:B; simpl; rewrite ?S, ?B, IH; reflexivity.
Qed.

Lemma bracket_log_flat_map_ext c (f g : call -> list call) h :
  (forall x, bracket (f x) = bracket (g x)) -> bracket_log c (flat_map f h) = bracket_log c (flat_map g h).
Proof.
  intro H. rewrite !bracket_log_bracket. f_equal.
  apply filter_flat_map_ext. exact H.
Qed.

Lemma multi_conv_bracket ci hc : bracket (multi_conv ci hc) = bracket (e2o_conv ci hc).
Proof. destruct hc; try reflexivity. simpl. destruct (c_progress ci); reflexivity. Qed.

Lemma e2o_layer_delivers c h : forallb call_okb (bracket h) = true ->
  forall2b (delivered_ok c) (bracket h) (bracket_log c (flat_map (e2o_conv c) h)) = true.
Proof.
  induction h as [|hc h IH]; intro Hok; [reflexivity|].
  simpl flat_map. rewrite bracket_log_app.
  unfold bracket at 1. simpl filter. fold (bracket h).
  destruct (is_bracket hc) eqn:B.
  - unfold bracket in Hok. simpl in Hok. rewrite B in Hok. simpl in Hok.
    apply andb_true_iff in Hok as [Hc Hr].
    destruct (e2o_conv_delivers c hc B Hc) as (lc & -> & Bl & Sl & Dl).
    unfold bracket_log at 1, target_log, bracket. simpl. rewrite Sl. simpl. rewrite Bl. simpl.
    rewrite Dl. apply IH. exact Hr.
  - rewrite bracket_log_bracket, (e2o_conv_noise c hc B). simpl. apply IH.
    unfold bracket in Hok. simpl in Hok. rewrite B in Hok. exact Hok.
Qed.

Definition oext (c : caps) : bool := c_skip c && c_xfail c && c_uxs c && c_details c.

Lemma e2o_conv_id ci hc : oext ci = true -> is_bracket hc = true -> e2o_conv ci hc = [hc].
Proof.
  unfold oext. intros [[[Hskip Hxf]%andb_prop Hux]%andb_prop Hdet]%andb_prop B.
  destruct hc as [ | | | | | t | t | k t a | t a | k t od | | ]; try discriminate B.
  - reflexivity.
  - reflexivity.
  - destruct k, a; simpl; rewrite ?Hxf, ?Hdet; reflexivity.
  - destruct a; simpl; rewrite ?Hskip, ?Hdet; reflexivity.
  - destruct k, od; simpl; rewrite ?Hux, ?Hdet; reflexivity.
Qed.

Lemma e2o_conv_transparent ci hc : oext ci = true -> bracket (e2o_conv ci hc) = bracket [hc].
Proof.
  intro H. destruct (is_bracket hc) eqn:B.
  - rewrite (e2o_conv_id ci hc H B). reflexivity.
  - rewrite (e2o_conv_noise ci hc B). unfold bracket. simpl. rewrite B. reflexivity.
Qed.

(* a TestResultDecorator / Tagger forwards bracket calls as they are: the same as an ExtendedToOriginalDecorator above
   something that speaks the extended protocol *)
Lemma layer_conv_bracket l ci hc :
  match l with LDeco | LTagger _ _ => oext ci = true | _ => True end ->
  bracket (layer_conv l ci hc) = bracket (e2o_conv ci hc).
Proof.
  destruct l; simpl; intro H.
  - reflexivity.
  - apply multi_conv_bracket.
  - rewrite (e2o_conv_transparent ci hc H). destruct hc; reflexivity.
  - rewrite (e2o_conv_transparent ci hc H). destruct hc; reflexivity.
Qed.

Lemma layer_conv_transparent l ci hc : oext ci = true -> bracket (layer_conv l ci hc) = bracket [hc].
Proof.
  intro H. rewrite layer_conv_bracket by (destruct l; auto). apply e2o_conv_transparent. exact H.
Qed.

Lemma flat_map_bracket (f : call -> list call) h :
  (forall x, bracket (f x) = bracket [x]) -> bracket (flat_map f h) = bracket h.
Proof. intro H. rewrite <- (flat_map_single h) at 2. apply filter_flat_map_ext. exact H. Qed.

Lemma ext_oext c : ext_caps c = true -> oext c = true.
Proof.
  (* the capabilities oext asks for are the first four of ext_caps *)
  unfold ext_caps, oext. destruct (c_skip c && c_xfail c && c_uxs c && c_details c); [reflexivity | intro H; exact H].
Qed.

Definition pext (ls : list layer) (lf : leaf) : bool := ext_caps (piface ls lf).
Fixpoint pwf (ls : list layer) (lf : leaf) : bool :=
  match ls with
  | [] => true
  | LDeco :: r | LTagger _ _ :: r => pext r lf && pwf r lf
  | _ :: r => pwf r lf
  end.

(* induction on the adapter tree, with the hypothesis for every member of a MultiTestResult *)
Section AdapterInd.
  Variable P : adapter -> Prop.
  Hypothesis HT : forall c, P (Target c).
  Hypothesis HB : forall bad, P (ByTest bad).
  Hypothesis HE : forall a, P a -> P (E2O a).
  Hypothesis HM : forall l, (forall a, In a l -> P a) -> P (Multi l).
  Hypothesis HD : forall a, P a -> P (Deco a).
  Hypothesis HG : forall n g a, P a -> P (Tagger n g a).
  Fixpoint adapter_ind' (a : adapter) : P a :=
    match a with
    | Target c => HT c
    | ByTest bad => HB bad
    | E2O a' => HE a' (adapter_ind' a')
    | Multi l =>
        HM l ((fix go (l : list adapter) : forall a, In a l -> P a :=
                 match l with
                 | [] => fun a H => match H with end
                 | x :: r => fun a H => match H with
                                        | or_introl e => eq_ind x P (adapter_ind' x) a e
                                        | or_intror H' => go r a H'
                                        end
                 end) l)
    | Deco a' => HD a' (adapter_ind' a')
    | Tagger n g a' => HG n g a' (adapter_ind' a')
    end.
End AdapterInd.

Lemma piface_paths a p : In p (paths a) -> piface (fst p) (snd p) = iface a.
Proof.
  destruct a as [c|bad|a|l|a|n g a]; simpl; intro H.
  - destruct H as [<-|[]]. reflexivity.
  - destruct H as [<-|[]]. reflexivity.
  - apply in_map_iff in H as (q & <- & _). reflexivity.
  - apply in_flat_map in H as (x & _ & H). apply in_map_iff in H as (q & <- & _). reflexivity.
  - apply in_map_iff in H as (q & <- & _). reflexivity.
  - apply in_map_iff in H as (q & <- & _). reflexivity.
Qed.

Lemma ext_ok_iface a : ext_ok a = ext_caps (iface a).
Proof. destruct a; reflexivity. Qed.

Lemma paths_wf a : wf_stack a = true -> forall p, In p (paths a) -> pwf (fst p) (snd p) = true.
Proof.
  induction a as [c|bad|a IH|l IH|a IH|n g a IH] using adapter_ind'; simpl; intros Hwf p Hin.
  - destruct Hin as [<-|[]]. reflexivity.
  - destruct Hin as [<-|[]]. reflexivity.
  - apply in_map_iff in Hin as (q & <- & Hq). exact (IH Hwf q Hq).
  - apply andb_true_iff in Hwf as [_ Hwf]. rewrite forallb_forall in Hwf.
    apply in_flat_map in Hin as (a & Ha & Hin).
    apply in_map_iff in Hin as (q & <- & Hq). exact (IH a Ha (Hwf a Ha) q Hq).
  - apply andb_true_iff in Hwf as [He Hwf]. apply in_map_iff in Hin as (q & <- & Hq). simpl.
    unfold pext. rewrite (piface_paths a q Hq), <- ext_ok_iface, He. exact (IH Hwf q Hq).
  - apply andb_true_iff in Hwf as [He Hwf]. apply in_map_iff in Hin as (q & <- & Hq). simpl.
    unfold pext. rewrite (piface_paths a q Hq), <- ext_ok_iface, He. exact (IH Hwf q Hq).
Qed.

(* the tag changes of the Taggers on a path, innermost first *)
Fixpoint ptaggers (ls : list layer) : list tag_change :=
  match ls with
  | [] => []
  | LTagger n g :: r => ptaggers r ++ [(n, g)]
  | _ :: r => ptaggers r
  end.
Definition spec_of_path (p : path) : leaf * list tag_change := (snd p, ptaggers (fst p)).

Lemma spec_leaves_paths a : spec_leaves a = map spec_of_path (paths a).
Proof.
  induction a as [c|bad|a IH|l IH|a IH|n g a IH] using adapter_ind'; simpl; try reflexivity.
  - rewrite IH, map_map. reflexivity.
  - induction l as [|x l IHl]; [reflexivity|]. simpl. rewrite map_app, map_map.
    rewrite (IH x (or_introl eq_refl)). f_equal. apply IHl.
    intros a Ha. apply IH. right; exact Ha.
  - rewrite IH, map_map. reflexivity.
  - rewrite IH, !map_map. reflexivity.
Qed.

Lemma target_path_delivers c ls : forall h,
  pwf ls (LfTarget c) = true -> pext ls (LfTarget c) = true -> forallb call_okb (bracket h) = true ->
  forall2b (delivered_ok c) (bracket h) (bracket_log c (through ls (LfTarget c) h)) = true.
Proof.
  induction ls as [|l r IH]; intros h Hwf Hext Hok.
  - simpl in *. rewrite <- (flat_map_single h) at 2.
    rewrite (bracket_log_flat_map_ext c _ (e2o_conv c)); [apply e2o_layer_delivers; exact Hok|].
    intro x. symmetry. apply e2o_conv_transparent, ext_oext, Hext.
  - simpl through. destruct r as [|l2 r'].
    + simpl through. simpl piface.
      rewrite (bracket_log_flat_map_ext c _ (e2o_conv c)); [apply e2o_layer_delivers; exact Hok|].
      intro x. apply layer_conv_bracket.
      destruct l; simpl in Hwf |- *; try exact I; rewrite andb_true_r in Hwf; apply ext_oext, Hwf.
    + set (h' := flat_map (layer_conv l (piface (l2 :: r') (LfTarget c))) h).
      assert (Hb : bracket h' = bracket h).
      { apply flat_map_bracket. intro x. apply layer_conv_transparent. destruct l2; reflexivity. }
      rewrite <- Hb. apply IH.
      * destruct l; simpl in Hwf; try exact Hwf; apply andb_true_iff in Hwf as [_ Hwf]; exact Hwf.
      * destruct l2; reflexivity.
      * rewrite Hb. exact Hok.
Qed.

(* what a TestByTestResult reacts to; sig shadows Coq's sig *)
Definition relevant (c : call) : bool := match c with Progress _ _ | Stop | Done => false | _ => true end.
Definition sig (l : list call) : list call := filter relevant l.
Definition tag_calls (tg : list tag_change) : list call := map (fun ch => Tags (fst ch) (snd ch)) tg.
Definition inject1 (tg : list tag_change) (c : call) : list call :=
  match c with StartTest _ => c :: tag_calls tg | _ => [c] end.
Definition inject (tg : list tag_change) (h : list call) : list call := flat_map (inject1 tg) h.

Lemma sig_app a b : sig (a ++ b) = sig a ++ sig b.
Proof. apply filter_app. Qed.
Lemma inject_app tg a b : inject tg (a ++ b) = inject tg a ++ inject tg b.
Proof. apply flat_map_app. Qed.

Lemma inject_nil h : inject [] h = h.
Proof. induction h as [|c h IH]; [reflexivity|]. simpl. rewrite IH. destruct c; reflexivity. Qed.

Lemma sig_tag_calls tg : sig (tag_calls tg) = tag_calls tg.
Proof. induction tg as [|x tg IH]; [reflexivity|]. simpl. f_equal. exact IH. Qed.

Lemma sig_inject tg h : sig (inject tg h) = inject tg (sig h).
Proof.
  induction h as [|c h IH]; [reflexivity|]. simpl. rewrite sig_app, IH.
  destruct c; simpl; try reflexivity. rewrite sig_tag_calls. reflexivity.
Qed.

Lemma flat_map_sig_inject tg tg2 (f : call -> list call) h :
  (forall c, sig (inject tg (f c)) = sig (inject tg2 [c])) ->
  sig (inject tg (flat_map f h)) = sig (inject tg2 h).
Proof.
  intro H. induction h as [|c h IH]; [reflexivity|].
  simpl flat_map. rewrite inject_app, sig_app, H, IH.
  change (c :: h) with ([c] ++ h). rewrite inject_app, sig_app. reflexivity.
Qed.

Definition tcaps (c : caps) : bool := oext c && c_startrun c && c_stoprun c && c_tags c && c_time c.

Lemma e2o_conv_sig ci c : tcaps ci = true -> sig (e2o_conv ci c) = sig [c].
Proof.
  unfold tcaps. intros [[[[Hext Hsr]%andb_prop Hst]%andb_prop Htag]%andb_prop Htime]%andb_prop.
  destruct (is_bracket c) eqn:B; [rewrite (e2o_conv_id ci c Hext B); reflexivity|].
  destruct c as [ | | | | o w | t | t | k t a | t a | k t od | | ]; try discriminate B; simpl.
  - rewrite Hsr. reflexivity.
  - rewrite Hst. reflexivity.
  - rewrite Htag. reflexivity.
  - rewrite Htime. reflexivity.
  - (* progress(), stop() and done() may or may not be handed on: a TestByTestResult ignores them *)
    destruct (c_progress ci); reflexivity.
  - destruct (c_stop ci); reflexivity.
  - destruct (c_done ci); reflexivity.
Qed.

Lemma through_bytest bad ls : forall h,
  sig (through ls (LfByTest bad) h) = sig (inject (ptaggers ls) h).
Proof.
  induction ls as [|l r IH]; intro h.
  - simpl. rewrite inject_nil. reflexivity.
  - simpl through. rewrite IH.
    assert (Hc : tcaps (piface r (LfByTest bad)) = true) by (destruct r as [|[]]; reflexivity).
    set (ci := piface r (LfByTest bad)) in *.
    apply flat_map_sig_inject. intro c.
    destruct l; simpl ptaggers; simpl layer_conv.
    + rewrite !sig_inject, (e2o_conv_sig ci c Hc). reflexivity.
    + rewrite !sig_inject. destruct c; unfold multi_conv; try (rewrite (e2o_conv_sig ci _ Hc); reflexivity). reflexivity.
    + destruct c; reflexivity.
    + destruct c; try reflexivity. simpl. unfold tag_calls. rewrite map_app. simpl.
      rewrite !app_nil_r. reflexivity.
Qed.

Lemma bt_run_sig l : forall s, bt_run s (sig l) = bt_run s l.
Proof.
  induction l as [|c l IH]; intro s; [reflexivity|].
  destruct c; simpl; rewrite ?IH; reflexivity.
Qed.

(* the status words are the documented ones (table obligation on Gen/Bytest.v) *)
Lemma bt_words_documented :
  (forall k t a, Some (bt_word_err k) = word_of (AddErr k t a))
  /\ (forall t a, Some Gen.Bytest.bt_word_addSkip = word_of (AddSkip t a))
  /\ (forall k t d, Some (bt_word_ok k) = word_of (AddOk k t d)).
Proof. repeat split; intros; try destruct k; reflexivity. Qed.

Definition bt_with_cur (b : bt) (cur : list tag) : bt :=
  {| b_cur := cur; b_parents := b_parents b; b_now := b_now b; b_start := b_start b;
     b_status := b_status b; b_details := b_details b |}.

Lemma bt_run_tag_calls tg : forall b rest,
  bt_run b (tag_calls tg ++ rest) = bt_run (bt_with_cur b (apply_changes (b_cur b) tg)) rest.
Proof.
  induction tg as [|[n g] tg IH]; intros b rest.
  - destruct b; reflexivity.
  - simpl. rewrite IH. reflexivity.
Qed.

Definition BtSim (p : phase) (b : bt) (s : sst) : Prop :=
  b_now b = s_now s /\ b_start b = s_start s /\ b_status b = s_word s /\ b_details b = s_det s /\
  match p with
  | Outside => s_loc s = None /\ b_cur b = s_glob s /\ b_parents b = []
  | _ => s_loc s = Some (b_cur b) /\ b_parents b = [s_glob s]
  end.

Lemma bytest_simulation tg h : forall p b s,
  BtSim p b s -> bracketed_from p h = true -> bt_run b (inject tg h) = expected_cbs tg s h.
Proof.
  (* One call at a time: bracketed_from says which calls can come in the phase; for each of them one step of
     bt_run and one step of expected_cbs emit the same callback (none, or the one of stopTest), and the states
     they leave are related again in the phase bracketed_from moves to.  After startTest the Taggers' tags()
     calls are absorbed first (bt_run_tag_calls). *)
  destruct bt_words_documented as (We & Ws & Wo).
  induction h as [|c h IH]; intros p b s HR Hb; [reflexivity|].
  destruct b as [cur par now st wd dt], s as [gl lo snow sst swd sdt].
  unfold BtSim in HR; simpl in HR. destruct HR as (E1 & E2 & E3 & E4 & E5). subst snow sst swd sdt.
  destruct p; simpl in E5;
    [destruct E5 as (-> & -> & ->) | destruct E5 as (-> & ->) | destruct E5 as (-> & ->)].
  all: destruct c as [ | | n g | tm | o w | t' | t' | k t' a | t' a | k t' od | | ]; simpl in Hb; try discriminate Hb.
  all: try (apply andb_true_iff in Hb as [_ Hb]).
  all: simpl; rewrite ?bt_run_tag_calls; simpl.
  all: match goal with |- _ :: _ = _ :: _ => f_equal | _ => idtac end.
  all: match type of Hb with bracketed_from ?q _ = true => apply (IH q); [|exact Hb] end.
  all: unfold BtSim, bt_with_cur; simpl; repeat split; try reflexivity; auto.
  all: try (destruct a; reflexivity).
  all: try (apply (We k t' a)).
  all: try (apply (Wo k t' None)).
Qed.

Lemma bytest_path_callbacks bad ls h : bracketed_from Outside h = true ->
  bt_run bt_init (through ls (LfByTest bad) h) = expected_cbs (ptaggers ls) sst_init h.
Proof.
  intro Hb. rewrite <- bt_run_sig, through_bytest, bt_run_sig.
  apply bytest_simulation with Outside; [|exact Hb].
  unfold BtSim; simpl. repeat split; reflexivity.
Qed.

Lemma subsetb_refl a : subsetb a a = true.
Proof.
  unfold subsetb. apply forallb_forall. intros x Hx. apply existsb_eqb_In, Hx.
Qed.

Lemma cb_ok_refl c : cb_ok c c = true.
Proof.
  unfold cb_ok, set_eqb.
  rewrite (eqb_spec_refl _ test_eqb_spec), !(eqb_spec_refl _ onat_eqb_spec), subsetb_refl,
    (eqb_spec_refl _ (option_eqb_spec _ details_eqb_spec)). reflexivity.
Qed.

Lemma forall2b_refl {A} (p : A -> A -> bool) l : (forall x, p x x = true) -> forall2b p l l = true.
Proof. intro H. induction l as [|x l IH]; simpl; [reflexivity|]. rewrite H, IH. reflexivity. Qed.

Lemma raises_only a c e : raises a c = Some e ->
  e = AttributeError /\ (c = Done \/ exists o w, c = Progress o w).
Proof.
  destruct c; try (destruct a; discriminate).
  - intro H. split; [|right; eauto].
    induction a as [cp|bad|a IH|l|a IH|n g a IH]; simpl in H.
    + destruct (c_progress cp); congruence.
    + congruence.
    + destruct (c_progress (iface a)); [apply IH; exact H|discriminate].
    + congruence.
    + apply IH; exact H.
    + apply IH; exact H.
  - intro H. split; [|left; reflexivity].
    destruct a as [cp|bad|a|l|a|n g a]; simpl in H; try congruence.
    destruct (c_done cp); congruence.
Qed.

Lemma spec_leaves_leaves a : map fst (spec_leaves a) = map snd (paths a).
Proof. rewrite spec_leaves_paths, map_map. reflexivity. Qed.

Lemma aborts_only a c : aborts (paths a) c = true ->
  exists t, c = StopTest t /\ bad_for (map fst (spec_leaves a)) t = true.
Proof.
  destruct c; simpl; try discriminate. intro H. exists t. split; [reflexivity|].
  unfold bad_for. rewrite spec_leaves_leaves, existsb_map. exact H.
Qed.

Lemma raised_okb_here ls pre c r e rest :
  raised_okb ls (pre ++ c :: r) ((length pre, e) :: rest)
  = match c with
    | Done | Progress _ _ => exn_eqb e AttributeError
    | StopTest t => exn_eqb e CallbackError && bad_for ls t
    | _ => false
    end && raised_okb ls (pre ++ c :: r) rest.
Proof. unfold raised_okb. simpl. rewrite nth_error_app2, Nat.sub_diag by apply Nat.le_refl. reflexivity. Qed.

Lemma raised_from_ok a h' : forall pre,
  raised_okb (map fst (spec_leaves a)) (pre ++ h') (raised_from a (length pre) h') = true.
Proof.
  induction h' as [|c r IH]; intro pre; [reflexivity|].
  assert (Hrest : raised_okb (map fst (spec_leaves a)) (pre ++ c :: r) (raised_from a (S (length pre)) r) = true).
  { specialize (IH (pre ++ [c])). rewrite <- app_assoc, app_length in IH. simpl in IH.
    rewrite Nat.add_1_r in IH. exact IH. }
  simpl. destruct (raises a c) as [e|] eqn:E.
  - destruct (raises_only _ _ _ E) as [-> Hc]. rewrite raised_okb_here, Hrest.
    destruct Hc as [->|(o & w & ->)]; reflexivity.
  - destruct (aborts (paths a) c) eqn:A; [|exact Hrest].
    destruct (aborts_only _ _ A) as (t & -> & Hb). rewrite raised_okb_here, Hrest, Hb. reflexivity.
Qed.

Lemma abort_reaches_before (before : list path) (p : path) (r : list path) t :
  abort_reaches (map snd (before ++ p :: r)) t = false -> existsb (fun q => leaf_bad (snd q) t) before = false.
Proof.
  induction before as [|q before IH]; simpl; intro H; [reflexivity|].
  apply orb_false_iff in H as [H1 H2]. rewrite (IH H2), orb_false_r.
  destruct (leaf_bad (snd q) t); [|reflexivity].
  exfalso. clear IH H2. destruct before; simpl in H1; discriminate H1.
Qed.

Definition clean (ps : list path) (h : list call) : Prop :=
  forall t, In (StopTest t) h -> abort_reaches (map snd ps) t = false.

Lemma reaching_clean (before : list path) (p : path) (r : list path) h : clean (before ++ p :: r) h -> reaching before h = h.
Proof.
  intro Hc. unfold reaching. induction h as [|c h IH]; [reflexivity|]. simpl.
  assert (A : aborts before c = false).
  { destruct c; try reflexivity. simpl. eapply abort_reaches_before.
    apply Hc. left; reflexivity. }
  rewrite A. simpl. f_equal.
  apply IH. intros t Ht. apply Hc. right; exact Ht.
Qed.

Lemma run_leaves_clean rest : forall before h, clean (before ++ rest) h ->
  run_leaves before rest h = map (leaf_run h) rest.
Proof.
  induction rest as [|p r IH]; intros before h Hc; [reflexivity|].
  simpl. rewrite (reaching_clean before p r h Hc). f_equal.
  apply IH. rewrite <- app_assoc. exact Hc.
Qed.

Lemma no_sibling_clean i : fault_reaches_sibling i = false -> clean (paths (stack i)) (hist i).
Proof.
  unfold fault_reaches_sibling, clean. intros H t Ht.
  pose proof (proj1 (existsb_false _ _) H _ Ht) as K. simpl in K.
  rewrite spec_leaves_leaves in K. exact K.
Qed.

Lemma through_nil ls lf : through ls lf [] = [].
Proof. induction ls as [|l r IH]; [reflexivity|]. simpl. exact IH. Qed.

Lemma through_app ls lf : forall h1 h2, through ls lf (h1 ++ h2) = through ls lf h1 ++ through ls lf h2.
Proof.
  induction ls as [|l r IH]; intros h1 h2; [reflexivity|]. simpl. rewrite flat_map_app. apply IH.
Qed.

Definition silent (lf : leaf) (cs : list call) : Prop :=
  match lf with
  | LfTarget cp => target_log cp cs = []
  | LfByTest _ => sig cs = []
  end.

Lemma through_done ls lf : silent lf (through ls lf [Done]).
Proof.
  induction ls as [|l r IH].
  - destruct lf; reflexivity.
  - simpl through. rewrite app_nil_r.
    assert (H : layer_conv l (piface r lf) Done = [] \/ layer_conv l (piface r lf) Done = [Done]).
    { destruct l; simpl; try (destruct (c_done (piface r lf))); auto. }
    destruct H as [-> | ->]; [|exact IH]. rewrite through_nil. destruct lf; reflexivity.
Qed.

(* [run] pushes every call of the history through every path, including those that raise at the
   top: that is right because such a call reaches no log and no TestByTestResult *)
Lemma raising_call_delivers_nothing a c e : raises a c = Some e ->
  forall p, In p (paths a) -> silent (snd p) (through (fst p) (snd p) [c]).
Proof.
  intro H. destruct (raises_only _ _ _ H) as [_ [->|(o & w & ->)]].
  - intros p _. apply through_done.
  - revert H. induction a as [cp|bad|a IH|l IH|a IH|n g a IH] using adapter_ind'; simpl; intros H p Hin.
    + destruct Hin as [<-|[]]. simpl. destruct (c_progress cp); [discriminate|reflexivity].
    + destruct Hin as [<-|[]]. reflexivity.
    + apply in_map_iff in Hin as (q & <- & Hq). simpl. rewrite app_nil_r.
      rewrite (piface_paths a q Hq). destruct (c_progress (iface a)); [|discriminate].
      apply IH; assumption.
    + apply in_flat_map in Hin as (x & _ & Hin). apply in_map_iff in Hin as (q & <- & _).
      simpl. rewrite through_nil. destruct (snd q); reflexivity.
    + apply in_map_iff in Hin as (q & <- & Hq). simpl. apply IH; assumption.
    + apply in_map_iff in Hin as (q & <- & Hq). simpl. apply IH; assumption.
Qed.

Lemma forallb_filter {A} (p q : A -> bool) l : forallb p l = true -> forallb p (filter q l) = true.
Proof.
  induction l as [|x l IH]; simpl; intro H; [reflexivity|].
  apply andb_true_iff in H as [H1 H2]. destruct (q x); simpl; [rewrite H1|]; apply IH; exact H2.
Qed.

Lemma path_meets_spec a h p :
  ext_ok a = true -> wf_stack a = true -> forallb call_okb h = true -> bracketed_from Outside h = true ->
  In p (paths a) -> leaf_okb h (spec_of_path p) (leaf_run h p) = true.
Proof.
  intros He Hwf Hok Hb Hin. pose proof (paths_wf a Hwf p Hin) as Hp.
  assert (Hx : pext (fst p) (snd p) = true) by (unfold pext; rewrite (piface_paths a p Hin), <- ext_ok_iface; exact He).
  destruct p as [ls [c|bad]]; unfold leaf_okb, leaf_run, spec_of_path; simpl in *.
  - apply (target_path_delivers c ls h Hp Hx). apply forallb_filter. exact Hok.
  - rewrite bytest_path_callbacks by exact Hb. apply forall2b_refl. exact cb_ok_refl.
Qed.

Lemma wf_parts i : wf i ->
  ext_ok (stack i) = true /\ wf_stack (stack i) = true /\ forallb call_okb (hist i) = true
  /\ bracketed_from Outside (hist i) = true /\ fault_reaches_sibling i = false.
Proof.
  unfold wf, wfb. intro H. repeat (apply andb_true_iff in H as [H ?]).
  repeat split; try assumption. apply negb_true_iff. assumption.
Qed.

Theorem model_meets_spec i : wf i -> spec_okb i (model i) = true.
Proof.
  intro H. destruct (wf_parts i H) as (He & Hw & Hc & Hb & NF).
  unfold spec_okb, model, run. simpl. apply andb_true_iff. split.
  - exact (raised_from_ok (stack i) (hist i) []).
  - rewrite (run_leaves_clean _ [] _ (no_sibling_clean i NF)).
    rewrite spec_leaves_paths. apply forall2b_map. intros p Hp.
    apply (path_meets_spec (stack i)); assumption.
Qed.

(* comparison hypotheses become the equalities they decide, substituted *)
Ltac eqb_norm :=
  repeat match goal with
  | H : (_ && _) = true |- _ => apply andb_true_iff in H; destruct H
  | H : (_ || _) = true |- _ => apply orb_true_iff in H; destruct H
  | H : negb _ = true |- _ => apply negb_true_iff in H
  | H : test_eqb _ _ = true |- _ => apply test_eqb_spec in H
  | H : text_eqb _ _ = true |- _ => apply text_eqb_spec in H
  | H : errv_eqb _ _ = true |- _ => apply errv_eqb_spec in H
  | H : details_eqb _ _ = true |- _ => apply details_eqb_spec in H
  | H : ekind_eqb _ _ = true |- _ => apply ekind_eqb_spec in H
  | H : okind_eqb _ _ = true |- _ => apply okind_eqb_spec in H
  | H : option_eqb details_eqb _ _ = true |- _ => apply (option_eqb_spec _ details_eqb_spec) in H
  | H : option_eqb Nat.eqb _ _ = true |- _ => apply onat_eqb_spec in H
  | H : exn_eqb _ _ = true |- _ => apply exn_eqb_spec in H
  | H : contains_all _ _ = true |- _ => apply contains_all_spec in H
  end; subst.

(* H is the conjunction delivered_ok tests for the pair of calls: test, kind, argument and, where the table degrades,
   what the text must contain *)
Lemma delivered_ok_sound c hc lc : delivered_ok c hc lc = true -> Delivered c hc lc.
Proof.
  destruct hc as [ | | | | | t | t | k t a | t a | k t od | | ]; simpl; try discriminate.
  - destruct lc; try discriminate. intro H. eqb_norm. constructor.
  - destruct lc; try discriminate. intro H. eqb_norm. constructor.
  - destruct (has_err c k) eqn:Hk.
    + destruct lc as [ | | | | | | | k' t' a' | | | | ]; try discriminate. intro H. eqb_norm.
      destruct a as [e|d], a' as [[| |s|]|d']; try discriminate; eqb_norm; constructor; assumption.
    + destruct lc as [ | | | | | | | | | [|] t' [|] | | ]; try discriminate. intro H. eqb_norm.
      destruct k; try discriminate. constructor. exact Hk.
  - destruct (c_skip c) eqn:Hs.
    + destruct lc as [ | | | | | | | | t' a' | | | ]; try discriminate. intro H. eqb_norm.
      destruct a as [r|d], a' as [r'|d']; try discriminate; eqb_norm; try (constructor; assumption).
      destruct (lookup n_reason d) as [[r| |]|] eqn:L; eqb_norm.
      * apply D_skip_key; assumption.
      * eapply D_skip_odd; try eassumption. discriminate.
      * eapply D_skip_odd; try eassumption. discriminate.
      * apply D_skip_str; assumption.
    + destruct lc as [ | | | | | | | | | [|] t' [|] | | ]; try discriminate. intro H. eqb_norm. constructor. exact Hs.
  - destruct (has_ok c k) eqn:Hk.
    + destruct lc as [ | | | | | | | | | k' t' od' | | ]; try discriminate. intro H.
      destruct (c_details c) eqn:D; eqb_norm; try (constructor; assumption).
      * destruct k', od as [[|]|], od'; try discriminate. apply D_ok_empty. exact D.
      * destruct od'; try discriminate. apply D_ok_plain; assumption.
    + destruct lc as [ | | | | | | | [| |] t' [[| | |]|] | | | | ]; try discriminate. intro H. eqb_norm.
      destruct k; try discriminate. constructor. exact Hk.
Qed.

Lemma subsetb_spec a b : subsetb a b = true -> forall x, In x a -> In x b.
Proof.
  unfold subsetb. rewrite forallb_forall. intros H x Hx. apply existsb_eqb_In, H, Hx.
Qed.

Lemma cb_ok_sound e c : cb_ok e c = true -> CbSpec e c.
Proof.
  unfold cb_ok, CbSpec, set_eqb. intro H. eqb_norm.
  repeat split; try assumption; apply subsetb_spec; assumption.
Qed.

Lemma raised_okb_sound ls h r : raised_okb ls h r = true -> RaisedSpec ls h r.
Proof.
  unfold raised_okb, RaisedSpec. rewrite forallb_forall. intros H j e Hin.
  specialize (H _ Hin). simpl in H.
  destruct (nth_error h j) as [[ | | | |o w| |t| | | | | ]|]; try discriminate.
  - left. apply exn_eqb_spec in H. split; [exact H|]. right. eauto.
  - right. apply andb_true_iff in H as [H1 H2]. apply exn_eqb_spec in H1. split; [exact H1|]. eauto.
  - left. apply exn_eqb_spec in H. split; [exact H|]. left. reflexivity.
Qed.

Lemma leaf_okb_sound h lt lo : leaf_okb h lt lo = true -> LeafSpec h lt lo.
Proof.
  unfold leaf_okb, LeafSpec. destruct (fst lt), lo; try discriminate.
  - apply forall2b_sound. apply delivered_ok_sound.
  - apply forall2b_sound. apply cb_ok_sound.
Qed.

Theorem spec_okb_sound i o : spec_okb i o = true -> Spec i o.
Proof.
  unfold spec_okb, Spec. intro H. apply andb_true_iff in H as [H1 H2]. split.
  - apply raised_okb_sound. exact H1.
  - revert H2. apply forall2b_sound. apply leaf_okb_sound.
Qed.

Lemma Forall2_nth {A B} (P : A -> B -> Prop) l m : Forall2 P l m ->
  forall k a, nth_error l k = Some a -> exists b, nth_error m k = Some b /\ P a b.
Proof.
  induction 1 as [|x y l m Hxy H IH]; intros k a Hk.
  - destruct k; discriminate.
  - destruct k; simpl in *.
    + injection Hk as <-. eauto.
    + apply IH. exact Hk.
Qed.

Lemma Delivered_shape c hc lc : Delivered c hc lc -> shape hc = shape lc.
Proof. destruct 1; reflexivity. Qed.

Lemma Delivered_fail c hc lc : Delivered c hc lc -> is_fail hc = true -> is_fail lc = true.
Proof. destruct 1; simpl; try congruence; try (destruct k; congruence). Qed.

Lemma spec_target i o k c tg : Spec i o -> nth_error (spec_leaves (stack i)) k = Some (LfTarget c, tg) ->
  exists l, nth_error (o_leaves o) k = Some (OLog l) /\ Forall2 (Delivered c) (bracket (hist i)) (bracket l).
Proof.
  intros [_ H] Hk. destruct (Forall2_nth _ _ _ H k _ Hk) as (lo & Hlo & HL).
  unfold LeafSpec in HL. simpl in HL. destruct lo as [l|cbs]; [|destruct HL]. eauto.
Qed.

Lemma spec_bytest i o k bad tg : Spec i o -> nth_error (spec_leaves (stack i)) k = Some (LfByTest bad, tg) ->
  exists cbs, nth_error (o_leaves o) k = Some (OCbs cbs)
              /\ Forall2 CbSpec (expected_cbs tg sst_init (hist i)) cbs.
Proof.
  intros [_ H] Hk. destruct (Forall2_nth _ _ _ H k _ Hk) as (lo & Hlo & HL).
  unfold LeafSpec in HL. simpl in HL. destruct lo as [l|cbs]; [destruct HL|]. eauto.
Qed.

Lemma once_in_order i o k c tg : Spec i o -> nth_error (spec_leaves (stack i)) k = Some (LfTarget c, tg) ->
  exists l, nth_error (o_leaves o) k = Some (OLog l)
            /\ map shape (bracket l) = map shape (bracket (hist i)).
Proof.
  intros HS Hk. destruct (spec_target i o k c tg HS Hk) as (l & Hl & HD). exists l. split; [exact Hl|].
  symmetry. apply Forall2_map_eq. eapply Forall2_impl; [|exact HD]. apply Delivered_shape.
Qed.

Lemma no_pass_from_fail i o k c tg : Spec i o -> nth_error (spec_leaves (stack i)) k = Some (LfTarget c, tg) ->
  exists l, nth_error (o_leaves o) k = Some (OLog l)
            /\ Forall2 (fun hc lc => is_fail hc = true -> is_fail lc = true) (bracket (hist i)) (bracket l).
Proof.
  intros HS Hk. destruct (spec_target i o k c tg HS Hk) as (l & Hl & HD). exists l. split; [exact Hl|].
  eapply Forall2_impl; [|exact HD]. apply Delivered_fail.
Qed.

Lemma expected_cbs_tests tg h : forall s, map cb_test (expected_cbs tg s h) = stop_tests h.
Proof.
  induction h as [|c h IH]; intro s; [reflexivity|].
  destruct c; simpl; rewrite ?IH; try reflexivity;
    try (destruct (s_loc s); simpl; apply IH).
Qed.

Definition phase_tests (p : phase) : list test :=
  match p with Outside => [] | Started t | Reported t => [t] end.

Lemma bracketed_tests h : forall p, bracketed_from p h = true ->
  phase_tests p ++ start_tests h = stop_tests h.
Proof.
  induction h as [|c h IH]; intros p Hb.
  - destruct p; try discriminate. reflexivity.
  - destruct c; simpl in Hb; destruct p; try discriminate; simpl.
    all: try (apply andb_true_iff in Hb as [Ht Hb]; apply test_eqb_spec in Ht; subst).
    all: try (match goal with |- _ :: _ = _ :: _ => f_equal end).
    all: match type of Hb with bracketed_from ?q _ = true => exact (IH q Hb) end.
Qed.

Lemma CbSpec_tests l m : Forall2 CbSpec l m -> map cb_test m = map cb_test l.
Proof. induction 1 as [|x y l m [H _] _ IH]; simpl; congruence. Qed.

Lemma bytest_clause i o k bad tg : wf i -> Spec i o ->
  nth_error (spec_leaves (stack i)) k = Some (LfByTest bad, tg) ->
  exists cbs, nth_error (o_leaves o) k = Some (OCbs cbs)
              /\ Forall2 CbSpec (expected_cbs tg sst_init (hist i)) cbs
              /\ map cb_test cbs = stop_tests (hist i)
              /\ stop_tests (hist i) = start_tests (hist i).
Proof.
  intros Hwf HS Hk. destruct (spec_bytest i o k bad tg HS Hk) as (cbs & Hc & HF).
  exists cbs. repeat split; try assumption.
  - rewrite (CbSpec_tests _ _ HF). apply expected_cbs_tests.
  - destruct (wf_parts i Hwf) as (_ & _ & _ & Hb & _). symmetry. exact (bracketed_tests _ Outside Hb).
Qed.

Lemma spec_leaves_shape i o : Spec i o ->
  Forall2 (fun lt lo => match fst lt, lo with LfTarget _, OLog _ | LfByTest _, OCbs _ => True | _, _ => False end)
          (spec_leaves (stack i)) (o_leaves o).
Proof.
  intros [_ H]. eapply Forall2_impl; [|exact H]. intros [lf tg] lo. unfold LeafSpec. simpl.
  destruct lf, lo; auto.
Qed.

Lemma model_spec i : wf i -> Spec i (model i).
Proof. intros H. apply spec_okb_sound. apply model_meets_spec; assumption. Qed.
