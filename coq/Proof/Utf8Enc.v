(* The per-code-point law behind C16_text_roundtrip.  utf8_enc1 writes c in base 64: the decoder is
   characterised on sequences given by their base-64 digits (decode_2/3/4; the side conditions are the
   rows of table 3-7 of the Unicode standard), then the digits of a scalar value meet those conditions. *)
From TT Require Import Lib.Base Model.Utf8.
Local Open Scope N_scope.

Lemma between_true lo hi b : lo <= b <= hi -> between lo hi b = true.
Proof. intros [L H]. unfold between. apply andb_true_iff; split; apply N.leb_le; assumption. Qed.

Lemma lead_2 b : 0xC2 <= b < 0xE0 -> u8_step U0 b = Some (U1 (b - 0xC0), None).
Proof.
  intros [L H]. unfold u8_step.
  destruct (N.ltb_spec b 0x80); [lia|]. destruct (N.ltb_spec b 0xC2); [lia|].
  destruct (N.ltb_spec b 0xE0); [reflexivity|lia].
Qed.

Lemma lead_3 b : 0xE0 <= b < 0xF0 ->
  u8_step U0 b = Some (U2 (b - 0xE0) (if b =? 0xE0 then 0xA0 else 0x80) (if b =? 0xED then 0x9F else 0xBF), None).
Proof.
  intros [L H]. unfold u8_step.
  destruct (N.ltb_spec b 0x80); [lia|]. destruct (N.ltb_spec b 0xC2); [lia|].
  destruct (N.ltb_spec b 0xE0); [lia|]. destruct (N.ltb_spec b 0xF0); [reflexivity|lia].
Qed.

Lemma lead_4 b : 0xF0 <= b < 0xF5 ->
  u8_step U0 b = Some (U3 (b - 0xF0) (if b =? 0xF0 then 0x90 else 0x80) (if b =? 0xF4 then 0x8F else 0xBF), None).
Proof.
  intros [L H]. unfold u8_step.
  destruct (N.ltb_spec b 0x80); [lia|]. destruct (N.ltb_spec b 0xC2); [lia|].
  destruct (N.ltb_spec b 0xE0); [lia|]. destruct (N.ltb_spec b 0xF0); [lia|].
  destruct (N.ltb_spec b 0xF5); [reflexivity|lia].
Qed.

(* continuation bytes are 0x80 + r, r a base-64 digit *)
Lemma cont_1 acc r : r < 64 -> u8_step (U1 acc) (0x80 + r) = Some (U0, Some (acc * 64 + r)).
Proof. intro H. unfold u8_step. rewrite between_true by lia. rewrite (N.add_comm 0x80 r), N.add_sub. reflexivity. Qed.

Lemma cont_2 acc lo hi r : lo <= 0x80 + r <= hi ->
  u8_step (U2 acc lo hi) (0x80 + r) = Some (U1 (acc * 64 + r), None).
Proof. intro H. unfold u8_step. rewrite between_true by exact H. rewrite (N.add_comm 0x80 r), N.add_sub. reflexivity. Qed.

Lemma cont_3 acc lo hi r : lo <= 0x80 + r <= hi ->
  u8_step (U3 acc lo hi) (0x80 + r) = Some (U2 (acc * 64 + r) 0x80 0xBF, None).
Proof. intro H. unfold u8_step. rewrite between_true by exact H. rewrite (N.add_comm 0x80 r), N.add_sub. reflexivity. Qed.

Lemma decode_2 q r : 2 <= q < 32 -> r < 64 ->
  feed utf8 U0 [0xC0 + q; 0x80 + r] = Some (U0, [q * 64 + r]).
Proof.
  intros Hq Hr. cbn [feed utf8 dstep].
  rewrite lead_2 by lia. rewrite cont_1 by exact Hr.
  replace (0xC0 + q - 0xC0) with q by lia. reflexivity.
Qed.

(* q = 0 would be overlong unless r1 >= 32; q = 13 is the surrogate row unless r1 < 32 *)
Lemma decode_3 q r1 r0 : q < 16 -> r1 < 64 -> r0 < 64 -> (q = 0 -> 32 <= r1) -> (q = 13 -> r1 < 32) ->
  feed utf8 U0 [0xE0 + q; 0x80 + r1; 0x80 + r0] = Some (U0, [(q * 64 + r1) * 64 + r0]).
Proof.
  intros Hq H1 H0 Hlo Hhi. cbn [feed utf8 dstep].
  rewrite lead_3 by lia. rewrite cont_2.
  - rewrite cont_1 by exact H0. replace (0xE0 + q - 0xE0) with q by lia. reflexivity.
  - destruct (N.eqb_spec (0xE0 + q) 0xE0); destruct (N.eqb_spec (0xE0 + q) 0xED); lia.
Qed.

(* q = 0 would be overlong unless r2 >= 16; q = 4 exceeds U+10FFFF unless r2 < 16 *)
Lemma decode_4 q r2 r1 r0 : q < 5 -> r2 < 64 -> r1 < 64 -> r0 < 64 -> (q = 0 -> 16 <= r2) -> (q = 4 -> r2 < 16) ->
  feed utf8 U0 [0xF0 + q; 0x80 + r2; 0x80 + r1; 0x80 + r0] = Some (U0, [((q * 64 + r2) * 64 + r1) * 64 + r0]).
Proof.
  intros Hq H2 H1 H0 Hlo Hhi. cbn [feed utf8 dstep].
  rewrite lead_4 by lia. rewrite cont_3.
  - rewrite cont_2 by lia. rewrite cont_1 by exact H0. replace (0xF0 + q - 0xF0) with q by lia. reflexivity.
  - destruct (N.eqb_spec (0xF0 + q) 0xF0); destruct (N.eqb_spec (0xF0 + q) 0xF4); lia.
Qed.

Lemma digit c : c = c / 64 * 64 + c mod 64 /\ c mod 64 < 64.
Proof. split; [rewrite N.mul_comm; apply N.div_mod | apply N.mod_lt]; discriminate. Qed.

Theorem utf8_enc1_decodes : forall c, is_scalar c = true ->
  feed utf8 U0 (utf8_enc1 c) = Some (U0, [c]).
Proof.
  intros c Hs.
  assert (Sc : c < 0xD800 \/ 0xE000 <= c <= 0x10FFFF).
  { unfold is_scalar in Hs. apply orb_true_iff in Hs as [H|H]; [left; apply N.ltb_lt, H|right].
    apply andb_true_iff in H as [H1 H2]. split; apply N.leb_le; assumption. }
  clear Hs. unfold utf8_enc1.
  change 4096 with (64 * 64). change 262144 with (64 * 64 * 64). rewrite <- !N.div_div by discriminate.
  (* name the digits: c = ((q3 * 64 + r2) * 64 + r1) * 64 + r0, q2 = c / 64^2, q1 = c / 64 *)
  destruct (digit c) as [E0 L0], (digit (c / 64)) as [E1 L1], (digit (c / 64 / 64)) as [E2 L2].
  revert E0 L0 E1 L1 E2 L2.
  generalize (c mod 64) as r0, (c / 64 mod 64) as r1, (c / 64 / 64 mod 64) as r2.
  generalize (c / 64 / 64 / 64) as q3, (c / 64 / 64) as q2, (c / 64) as q1.
  intros q3 q2 q1 r2 r1 r0 E0 L0 E1 L1 E2 L2.
  destruct (N.ltb_spec c 0x80) as [B1|B1].
  { cbn [feed utf8 dstep]. unfold u8_step. apply N.ltb_lt in B1. rewrite B1. reflexivity. }
  destruct (N.ltb_spec c 0x800) as [B2|B2].
  { rewrite decode_2 by lia. congruence. }
  destruct (N.ltb_spec c 0x10000) as [B3|B3].
  { rewrite decode_3 by lia. congruence. }
  rewrite decode_4 by lia. congruence.
Qed.
