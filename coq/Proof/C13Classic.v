(* C13 - proofs: ConcurrentTestSuite (the classic suite) on top of the thread-level lemmas of
   Proof/C12.v and the queue lemmas of Proof/C13.v. *)
From TT Require Import Lib.Base Lib.ListFacts Model.Tfr Model.Concur Spec.C12 Spec.C13 Corr.C13 Proof.SchedFacts Proof.C12 Proof.C13.

Lemma existsb_repeat_false p : existsb (fun b : bool => b) (repeat false p) = false.
Proof. induction p as [|p IH]; simpl; [reflexivity | exact IH]. Qed.
(* how many process results the except clause reaches (Spec.C13.stops_expected): all of them unless a stop()
   of the caller's result raised, then those up to that one *)
Lemma stops_expected_true p len : stops_expected (repeat false p ++ [true]) len = S p.
Proof.
  unfold stops_expected. destruct (repeat false p ++ [true]) as [|b l] eqn:E; [destruct p; discriminate|].
  rewrite <- E, existsb_app. simpl. rewrite orb_true_r.
  clear. induction p as [|p IH]; simpl; [reflexivity | rewrite IH; reflexivity].
Qed.
Lemma stops_expected_none fl len : existsb (fun b : bool => b) fl = false -> stops_expected fl len = len.
Proof. intro H. unfold stops_expected. destruct fl; [reflexivity|]. rewrite H. reflexivity. Qed.
Lemma forallb_firstn {A} (p : A -> bool) m l : forallb p l = true -> forallb p (firstn m l) = true.
Proof.
  revert m. induction l as [|x l IH]; intros [|m] H; simpl in *; try reflexivity.
  apply andb_true_iff in H as [H1 H2]. rewrite H1, (IH m H2). reflexivity.
Qed.
Lemma firstn_snoc_exact {A} (pre : list A) w rest : firstn (S (length pre)) (pre ++ w :: rest) = pre ++ [w].
Proof.
  replace (pre ++ w :: rest) with ((pre ++ [w]) ++ rest) by (rewrite <- app_assoc; reflexivity).
  replace (S (length pre)) with (length (pre ++ [w])) by (rewrite app_length; apply Nat.add_1_r).
  apply firstn_exact.
Qed.

Lemma finished_no_step th : finished th = true -> tstep th = None.
Proof. unfold finished, tstep. destruct (pc th); try discriminate. reflexivity. Qed.

Lemma proj_none t lg : Forall (fun e : tid * gev => fst e < t) lg -> proj t lg = [].
Proof.
  induction 1 as [|[u g] l He Hl IH]; [reflexivity|]. unfold proj in *. simpl in *.
  destruct (u =? t) eqn:E; [apply Nat.eqb_eq in E; lia | exact IH].
Qed.

Lemma proj_cg_snoc t tr u e :
  proj t (cg_log (tr ++ [(u, e)])) = proj t (cg_log tr) ++ match e with CG g => if u =? t then [g] else [] | _ => [] end.
Proof. rewrite cg_log_snoc. destruct e; rewrite ?app_nil_r; try reflexivity. apply proj_snoc. Qed.

Lemma remove_nat_length w l : length (remove_nat w l) <= length l.
Proof. unfold remove_nat. induction l as [|x l IH]; simpl; [lia|]. destruct (negb (x =? w)); simpl; lia. Qed.

(* worker w is thread w+1: inside a critical section iff it holds the semaphore; its token is on its way
   once it has finished; its part of the caller's-result log is a run of its own thread *)
Definition WOK (i : cinput) (sem : option tid) (tr : list (tid * cev)) (w : nat) (wk : cworker) : Prop :=
  shape (holds sem (S w)) (cw_th wk)
  /\ (cw_put wk = true -> finished (cw_th wk) = true)
  /\ fw w (putsq tr) = (if cw_put wk then [QToken w] else [])
  /\ exists s fl, nth_error (ci_suites i) w = Some (s, fl)
       /\ tpath (init_thread s fl (worker_fb (ci_base i))) (proj (S w) (cg_log tr)) (cw_th wk).

Lemma WOK_other i sem sem' tr t e w wk :
  WOK i sem tr w wk -> t <> S w -> holds sem' (S w) = holds sem (S w) ->
  match e with CPut q => qowner q <> w | _ => True end ->
  WOK i sem' (tr ++ [(t, e)]) w wk.
Proof.
  intros (H1 & H2 & H3 & s & fl & Hs & Hp) Hne Hh He. unfold WOK. rewrite Hh.
  split; [exact H1|]. split; [exact H2|]. split.
  - rewrite putsq_snoc, fw_app. destruct e; simpl; rewrite ?app_nil_r; try exact H3.
    apply Nat.eqb_neq in He. rewrite He, app_nil_r. exact H3.
  - exists s, fl. split; [exact Hs|]. rewrite proj_cg_snoc. apply Nat.eqb_neq in Hne.
    destruct e; simpl; rewrite ?Hne, ?app_nil_r; exact Hp.
Qed.

(* the worker whose token main has taken off the queue and not yet joined *)
Definition cpend_join (c : cconf) : list nat := match k_main c with CMJoin w => [w] | _ => [] end.
(* main (thread 0) holds the semaphore exactly between the acquire and the release of a stop() in the except clause *)
Definition holds0 (c : cconf) : bool := match k_main c with CMStopCall _ | CMStopRel _ _ => true | _ => false end.

(* reduces the projections of a configuration written out as a record (what every step function returns) *)
Ltac prj := cbn [k_sem k_log k_queue k_main k_unreaped k_workers k_gets k_mcalls k_raised k_stops k_live
                 cfinish cset_main cw_th cw_put].

Section Classic.
  Variable i : cinput.
  Let n := length (ci_suites i).
  Local Notation mt := (ci_mt_raise i).
  Let K := started n mt.

  (* the workers started and not yet joined, in the order of the `threads` dict *)
  Definition cU (c : cconf) : list nat := unreaped_of K (joins (k_log c)).
  Definition craise_exp (tr : list (tid * cev)) : bool := mt_raises n mt || has_intr tr || status_raised tr.

  (* the part that does not depend on where main is *)
  Record CBase (sem : option tid) (log : list (tid * cev)) (q : list nat) (ws : list cworker) : Prop := {
    cb_le : length ws <= K;
    cb_spawns : spawns log = seq 0 (length ws);
    cb_own : forallb (own_thread K) log = true;
    cb_nost : status_raised log = false;
    cb_semw : forall u, sem = Some u -> u <= length ws;
    cb_tids : Forall (fun e : tid * gev => fst e < S (length ws)) (cg_log log);
    cb_thr : forall w wk, nth_error ws w = Some wk -> WOK i sem log w wk;
    cb_mon : mon (S K) None (cg_log log) = Some sem;
    cb_fifo : gotten log ++ map QToken q = putsq log;
    cb_qown : Forall (fun x => qowner x < length ws) (putsq log) }.

  Definition cphase (c : cconf) : Prop :=
    match k_main c with
    | CMSpawn j => j = length (k_workers c) /\ j < K /\ gotten (k_log c) = []
    | CMGet => length (k_workers c) = K /\ mt_raises n mt = false /\ k_unreaped c <> []
    | CMJoin w => length (k_workers c) = K /\ mt_raises n mt = false
    | CMStopAcq ws => length (k_workers c) = K /\ craise_exp (k_log c) = true /\ ws <> [] /\ k_stops c ++ ws = cU c
                      /\ main_stops (k_log c) = repeat false (length (k_stops c))
    | CMStopCall ws => length (k_workers c) = K /\ craise_exp (k_log c) = true /\
                       exists pre w rest, ws = w :: rest /\ k_stops c = pre ++ [w] /\ pre ++ ws = cU c
                       /\ main_stops (k_log c) = repeat false (length pre)
    | CMStopRel ws b => length (k_workers c) = K /\ craise_exp (k_log c) = true /\
                       exists pre w rest, ws = w :: rest /\ k_stops c = pre ++ [w] /\ pre ++ ws = cU c
                       /\ main_stops (k_log c) = repeat false (length pre) ++ [b]
    | CMDone => length (k_workers c) = K /\ k_raised c = craise_exp (k_log c) /\ length (k_live c) = K
                /\ (if k_raised c then k_stops c = firstn (stops_expected (main_stops (k_log c)) (length (cU c))) (cU c)
                    else k_stops c = [] /\ forallb negb (k_live c) = true)
                (* who was alive when run() ended had not been joined *)
                /\ (forall w, nth_error (k_live c) w = Some true -> memb w (joins (k_log c)) = false)
    end.

  Definition crunning (c : cconf) : Prop :=
    match k_main c with
    | CMSpawn _ | CMGet | CMJoin _ =>
        k_stops c = [] /\ has_intr (k_log c) = false /\ main_stops (k_log c) = []
        /\ k_unreaped c = unreaped_of (length (k_workers c)) (joins (k_log c))
    | _ => True
    end.

  Record CInv (c : cconf) : Prop := {
    cv_base : CBase (k_sem c) (k_log c) (k_queue c) (k_workers c);
    cv_sem0 : k_sem c = Some 0 <-> holds0 c = true;
    cv_joins : map QToken (joins (k_log c) ++ cpend_join c) = gotten (k_log c);
    cv_phase : cphase c;
    cv_running : crunning c }.

  (* lays open the clauses of CInv about main for a configuration written out as a record and rewrites the trace
     readers in them over the event just appended *)
  Ltac main_clauses :=
    unfold holds0, cpend_join, cphase, crunning, cU, craise_exp in *; prj; snoc_main_readers.

  Definition worker_ev (sem : option tid) (q : list nat) (w : nat) (wk : cworker) (e : cev) (s' : option tid)
      (q' : list nat) (wk' : cworker) : Prop :=
    (exists g, e = CG g /\ tstep (cw_th wk) = Some (g, cw_th wk') /\ enabled sem (S w) g = Some s'
               /\ q' = q /\ cw_put wk' = cw_put wk)
    \/ (e = CPut (QToken w) /\ finished (cw_th wk) = true /\ cw_put wk = false /\ s' = sem
        /\ q' = q ++ [w] /\ wk' = {| cw_th := cw_th wk; cw_put := true |}).

  Lemma cstep_worker_unfold c w c' : cstep_worker c w = Some c' ->
    exists wk e s' q' wk', nth_error (k_workers c) w = Some wk
      /\ worker_ev (k_sem c) (k_queue c) w wk e s' q' wk'
      /\ c' = {| k_sem := s'; k_log := clog c (S w) e; k_queue := q'; k_main := k_main c; k_unreaped := k_unreaped c;
                 k_workers := upd (k_workers c) w wk'; k_gets := k_gets c; k_mcalls := k_mcalls c;
                 k_raised := k_raised c; k_stops := k_stops c; k_live := k_live c |}.
  Proof.
    unfold cstep_worker, worker_ev. destruct (nth_error (k_workers c) w) as [wk|] eqn:En; [|discriminate].
    destruct (tstep (cw_th wk)) as [[e th']|] eqn:Et.
    - destruct (enabled (k_sem c) (S w) e) as [s'|] eqn:Ee; [|discriminate]. intro H; injection H as <-.
      exists wk, (CG e), s', (k_queue c), {| cw_th := th'; cw_put := cw_put wk |}.
      split; [reflexivity|]. split; [|reflexivity]. left. exists e.
      repeat split; [exact Et | exact Ee].
    - destruct (finished (cw_th wk)) eqn:Ef; [|discriminate]. destruct (cw_put wk) eqn:Ep; [discriminate|].
      intro H; injection H as <-. exists wk, (CPut (QToken w)), (k_sem c), (k_queue c ++ [w]), {| cw_th := cw_th wk; cw_put := true |}.
      split; [reflexivity|]. split; [|reflexivity]. right.
      repeat split; [exact Ef | exact Ep].
  Qed.

  Lemma cbase_worker sem log q ws w wk e s' q' wk' :
    CBase sem log q ws -> nth_error ws w = Some wk -> worker_ev sem q w wk e s' q' wk' ->
    CBase s' (log ++ [(S w, e)]) q' (upd ws w wk').
  Proof.
    intros [Hle Hsp Hown Hns Hsw Htid Hthr Hmon Hfifo Hqo] En Hev.
    assert (Hw : w < length ws) by (apply nth_error_Some; congruence).
    destruct (Hthr w wk En) as (H1 & H2 & H3 & s & fl & Hs & Hp).
    assert (Hoth : (forall v, v <> w -> holds s' (S v) = holds sem (S v)) ->
                   match e with CPut x => qowner x = w | _ => True end ->
                   forall v x, v <> w -> nth_error ws v = Some x -> WOK i s' (log ++ [(S w, e)]) v x).
    { intros Hh He v x Hne Hv. apply (WOK_other i sem); [apply Hthr; exact Hv | congruence | apply Hh; exact Hne |].
      destruct e; try exact I. congruence. }
    destruct Hev as [(g & -> & Et & Ee & -> & Epw)|(-> & Ef & Epp & -> & -> & ->)].
    - assert (Hnp : cw_put wk = false).
      { destruct (cw_put wk); [|reflexivity]. rewrite (finished_no_step _ (H2 eq_refl)) in Et. discriminate. }
      destruct (shape_step _ _ _ _ _ _ Ee Et H1) as (Ht & Ho & Hh).
      constructor; rewrite ?length_upd.
      + exact Hle.
      + rewrite spawns_snoc. simpl. rewrite app_nil_r. exact Hsp.
      + rewrite forallb_snoc, Hown. apply Nat.leb_le. lia.
      + rewrite status_raised_snoc. simpl. rewrite orb_false_r. exact Hns.
      + intros u Hu. rewrite (Hh u Hu). exact Hw.
      + rewrite cg_log_snoc. apply Forall_app. split; [exact Htid|]. constructor; [simpl; lia | constructor].
      + apply (upd_pointwise (fun v x => WOK i s' (log ++ [(S w, CG g)]) v x) _ _ _ _ En).
        * unfold WOK. rewrite Epw, Hnp. split; [exact Ht|]. split; [discriminate|]. split.
          -- rewrite putsq_snoc. simpl. rewrite app_nil_r, H3, Hnp. reflexivity.
          -- exists s, fl. split; [exact Hs|]. rewrite proj_cg_snoc, Nat.eqb_refl. econstructor; eauto.
        * apply Hoth; [|exact I]. intros v Hne. apply Ho. congruence.
      + rewrite cg_log_snoc, mon_app, Hmon. cbn [mon]. rewrite Ee, (proj2 (Nat.ltb_lt (S w) (S K))) by lia. reflexivity.
      + rewrite gotten_snoc, putsq_snoc. simpl. rewrite !app_nil_r. exact Hfifo.
      + rewrite putsq_snoc. simpl. rewrite app_nil_r. exact Hqo.
    - constructor; rewrite ?length_upd.
      + exact Hle.
      + rewrite spawns_snoc. simpl. rewrite app_nil_r. exact Hsp.
      + rewrite forallb_snoc, Hown. reflexivity.
      + rewrite status_raised_snoc. simpl. rewrite orb_false_r. exact Hns.
      + exact Hsw.
      + rewrite cg_log_snoc. simpl. rewrite app_nil_r. exact Htid.
      + apply (upd_pointwise (fun v x => WOK i sem (log ++ [(S w, CPut (QToken w))]) v x) _ _ _ _ En).
        * unfold WOK. simpl. split; [exact H1|]. split; [intros _; exact Ef|]. split.
          -- rewrite putsq_snoc, fw_app, H3, Epp. simpl. rewrite Nat.eqb_refl. reflexivity.
          -- exists s, fl. split; [exact Hs|]. rewrite proj_cg_snoc, app_nil_r. exact Hp.
        * apply Hoth; reflexivity.
      + rewrite cg_log_snoc. simpl. rewrite app_nil_r. exact Hmon.
      + rewrite gotten_snoc, putsq_snoc. simpl. rewrite app_nil_r, map_app, app_assoc, Hfifo. reflexivity.
      + rewrite putsq_snoc. apply Forall_app. split; [exact Hqo|]. constructor; [exact Hw | constructor].
  Qed.

  Lemma cstep_worker_inv c w c' : CInv c -> cstep_worker c w = Some c' -> CInv c'.
  Proof.
    intros [HB H0 Hj Hp Hr] Hs. apply cstep_worker_unfold in Hs as (wk & e & s' & q' & wk' & En & Hev & ->).
    assert (He : (s' = Some 0 <-> k_sem c = Some 0) /\ match e with CG _ | CPut _ => True | _ => False end).
    { destruct Hev as [(g & -> & _ & Ee & _)|(-> & _ & _ & -> & _)]; [|split; [reflexivity | exact I]].
      split; [|exact I]. apply enabled_cases in Ee as [(_ & -> & ->)|[(_ & -> & ->)|(_ & -> & ->)]]; split; discriminate. }
    destruct He as [He0 He]. destruct (worker_ev_readers (k_log c) (S w) e (Nat.neq_succ_0 w) He) as (R1 & R2 & _ & R3 & R4 & R5).
    constructor; unfold holds0, cpend_join, cphase, crunning, cU, craise_exp, clog in *; prj;
      rewrite ?length_upd, ?R1, ?R2, ?R3, ?R4, ?R5; try assumption.
    - eapply cbase_worker; eauto.
    - rewrite He0. exact H0.
  Qed.

  Lemma cbase_main_ev sem sem' log q q' ws e :
    CBase sem log q ws -> own_thread K (0, e) = true ->
    match e with
    | CPut _ | CSpawn _ | CStatus _ _ _ _ _ _ => False
    | CG g => enabled sem 0 g = Some sem' /\ q' = q
    | CGet x => sem' = sem /\ map QToken q = x :: map QToken q'
    | _ => sem' = sem /\ q' = q
    end -> CBase sem' (log ++ [(0, e)]) q' ws.
  Proof.
    intros [Hle Hsp Hown Hns Hsw Htid Hthr Hmon Hfifo Hqo] Ho He.
    assert (Hwh : forall v, holds sem' (S v) = holds sem (S v)).
    { intro v. destruct e; try contradiction; try (destruct He as [-> _]; reflexivity).
      destruct He as [He _]. apply enabled_cases in He as [(_ & -> & ->)|[(_ & -> & ->)|(_ & -> & ->)]]; reflexivity. }
    constructor.
    - exact Hle.
    - rewrite spawns_snoc. destruct e; try contradiction; simpl; rewrite app_nil_r; exact Hsp.
    - rewrite forallb_snoc, Hown. exact Ho.
    - rewrite status_raised_snoc, Hns. destruct e; try contradiction; reflexivity.
    - destruct e; try contradiction; try (destruct He as [-> _]; exact Hsw).
      destruct He as [He _]. intros u Hu. apply enabled_cases in He as [(_ & _ & E)|[(_ & _ & E)|(_ & _ & E)]]; rewrite E in Hu.
      + injection Hu as <-. lia.
      + discriminate.
      + injection Hu as <-. lia.
    - rewrite cg_log_snoc. destruct e; try contradiction; simpl; rewrite ?app_nil_r; try exact Htid.
      apply Forall_app. split; [exact Htid|]. constructor; [simpl; lia | constructor].
    - intros v wkv Hv. apply (WOK_other i sem); [apply Hthr; exact Hv | discriminate | apply Hwh |].
      destruct e; try exact I. contradiction.
    - rewrite cg_log_snoc. destruct e; try contradiction; simpl; rewrite ?app_nil_r; try (destruct He as [-> _]; exact Hmon).
      destruct He as [He _]. rewrite mon_app, Hmon. cbn [mon]. rewrite He. reflexivity.
    - rewrite gotten_snoc, putsq_snoc.
      destruct e; try contradiction; simpl; rewrite ?app_nil_r; try (destruct He as [_ ->]; exact Hfifo).
      destruct He as [_ He]. rewrite <- app_assoc. simpl. rewrite <- He. exact Hfifo.
    - rewrite putsq_snoc. destruct e; try contradiction; simpl; rewrite app_nil_r; exact Hqo.
  Qed.

  Lemma holds0_sem c : CInv c -> holds0 c = false -> k_sem c <> Some 0.
  Proof. intros HI Hh E. apply (cv_sem0 c HI) in E. congruence. Qed.

  Lemma token_put sem log q ws v wk : CBase sem log q ws -> nth_error ws v = Some wk -> In (QToken v) (putsq log) -> cw_done wk = true.
  Proof.
    intros HB Hn Hin. destruct (cb_thr _ _ _ _ HB v wk Hn) as (_ & H2 & H3 & _).
    assert (Hf : In (QToken v) (fw v (putsq log))) by (apply filter_In; split; [exact Hin | simpl; apply Nat.eqb_refl]).
    rewrite H3 in Hf. unfold cw_done. destruct (cw_put wk); [|contradiction]. rewrite (H2 eq_refl). reflexivity.
  Qed.

  (* a worker that has been joined had put its token, so had finished *)
  Lemma joined_done sem log q ws v wk : CBase sem log q ws -> map QToken (joins log) = gotten log ->
    nth_error ws v = Some wk -> memb v (joins log) = true -> cw_done wk = true.
  Proof.
    intros HB Hj Hn Hm. apply memb_In in Hm. apply (token_put _ _ _ _ v wk HB Hn).
    rewrite <- (cb_fifo _ _ _ _ HB). apply in_or_app. left. rewrite <- Hj. apply in_map. exact Hm.
  Qed.

  Lemma cfinish_inv c raised :
    CBase (k_sem c) (k_log c) (k_queue c) (k_workers c) -> k_sem c <> Some 0 ->
    map QToken (joins (k_log c)) = gotten (k_log c) -> length (k_workers c) = K ->
    raised = craise_exp (k_log c) ->
    (if raised then k_stops c = firstn (stops_expected (main_stops (k_log c)) (length (cU c))) (cU c)
     else k_stops c = [] /\ cU c = []) ->
    CInv (cfinish c raised).
  Proof.
    intros HB Hs Hj HL Hr Hst.
    constructor; unfold holds0, cpend_join, cphase, crunning, cU in *; prj; try exact I.
    - exact HB.
    - split; [intro E; contradiction | discriminate].
    - rewrite app_nil_r. exact Hj.
    - rewrite map_length. split; [exact HL|]. split; [exact Hr|]. split; [exact HL|]. split.
      + destruct raised; [exact Hst|]. destruct Hst as [Hst Hu]. split; [exact Hst|].
        rewrite forallb_map. apply forallb_forall. intros wk Hin. rewrite negb_involutive.
        apply In_nth_error in Hin as [v Hv]. apply (joined_done _ _ _ _ v wk HB Hj Hv).
        apply (unreaped_nil_all _ _ Hu). rewrite <- HL. apply nth_error_Some. congruence.
      + intros w Hw. rewrite nth_error_map in Hw. destruct (nth_error (k_workers c) w) as [wk|] eqn:En; [|discriminate].
        destruct (memb w (joins (k_log c))) eqn:Em; [|reflexivity].
        simpl in Hw. rewrite (joined_done _ _ _ _ w wk HB Hj En Em) in Hw. discriminate.
  Qed.

  Lemma cabort_inv c :
    CBase (k_sem c) (k_log c) (k_queue c) (k_workers c) -> k_sem c <> Some 0 ->
    map QToken (joins (k_log c)) = gotten (k_log c) ->
    length (k_workers c) = K -> craise_exp (k_log c) = true -> main_stops (k_log c) = [] -> k_stops c = [] ->
    k_unreaped c = cU c -> CInv (cabort c).
  Proof.
    intros HB Hs Hj HL Hr Hm Hst Hu. unfold cabort. destruct (k_unreaped c) as [|u us] eqn:Eu.
    - apply cfinish_inv; auto. rewrite <- Hu, Hst. destruct (stops_expected _ _); reflexivity.
    - constructor; unfold holds0, cpend_join, cphase, crunning, cU in *; prj; try exact I.
      + exact HB.
      + split; [intro E; contradiction | discriminate].
      + rewrite app_nil_r. exact Hj.
      + rewrite Hst, Hm, <- Hu. repeat split; try assumption. discriminate.
  Qed.

  Lemma cafter_spawn_inv c k :
    CBase (k_sem c) (k_log c) (k_queue c) (k_workers c) -> k_sem c <> Some 0 -> length (k_workers c) = k -> k <= n ->
    (forall m, mt = Some m -> k <= m) ->
    gotten (k_log c) = [] -> joins (k_log c) = [] -> has_intr (k_log c) = false -> main_stops (k_log c) = [] ->
    k_stops c = [] -> k_unreaped c = seq 0 k -> CInv (cafter_spawn i c k).
  Proof.
    intros HB Hs HL Hkn Hmt Hg Hj Hi Hm Hst Hu.
    assert (Hj0 : map QToken (joins (k_log c)) = gotten (k_log c)) by (rewrite Hj, Hg; reflexivity).
    unfold cafter_spawn. fold n.
    pose proof (after_spawn_cases k n mt Hkn Hmt) as Hc. fold K in Hc.
    destruct Hc as [(-> & EK & Hnr)|(-> & [(-> & HK')|(-> & EK & Hnr)])].
    - apply cabort_inv; try assumption.
      + congruence.
      + unfold craise_exp. rewrite Hnr. reflexivity.
      + unfold cU. rewrite Hj, unreaped_of_nil, EK. exact Hu.
    - constructor; unfold holds0, cpend_join, cphase, crunning; prj; auto.
      + split; [intro E; contradiction | discriminate].
      + rewrite app_nil_r. exact Hj0.
      + rewrite Hj, HL, unreaped_of_nil. auto.
    - destruct (k_unreaped c) as [|u us] eqn:Eu.
      + assert (Hk0 : k = 0) by (rewrite <- (seq_length k 0), <- Hu; reflexivity).
        apply cfinish_inv; auto; [congruence | |].
        * unfold craise_exp. rewrite Hnr, Hi, (cb_nost _ _ _ _ HB). reflexivity.
        * split; [exact Hst|]. unfold cU. rewrite EK, Hk0. reflexivity.
      + constructor; unfold holds0, cpend_join, cphase, crunning; prj; auto.
        * split; [intro E; contradiction | discriminate].
        * rewrite app_nil_r. exact Hj0.
        * repeat split; [congruence | exact Hnr | rewrite Eu; discriminate].
        * rewrite Hj, HL, unreaped_of_nil, <- Hu, Eu. auto.
  Qed.

  Lemma cinit_inv : CInv (cinit i).
  Proof.
    unfold cinit. apply cafter_spawn_inv; prj; try reflexivity; try lia; try discriminate.
    constructor; simpl; try reflexivity; try lia; try discriminate.
    - constructor.
    - intros [|v0] wkv0 Hv0; discriminate.
    - constructor.
  Qed.

  Lemma cstep_spawn_inv c j c' : CInv c -> k_main c = CMSpawn j -> cstep_main i c = Some c' -> CInv c'.
  Proof.
    intros HI Em. unfold cstep_main. rewrite Em.
    destruct (nth_error (ci_suites i) j) as [[s fl]|] eqn:Es; [|discriminate]. cbv zeta. intro H; injection H as <-.
    pose proof HI as [HB H0 Hj Hp Hr]. unfold cphase, crunning, cpend_join in *. rewrite Em in *.
    destruct Hp as (HjL & HjK & Hg). destruct Hr as (Hst & Hi & Hms & Hu).
    simpl in Hj. rewrite Hg, app_nil_r in Hj. apply map_eq_nil in Hj.
    assert (Hs0 : k_sem c <> Some 0) by (apply holds0_sem; [exact HI | unfold holds0; rewrite Em; reflexivity]).
    assert (Hjn : j < n) by (apply nth_error_Some; congruence).
    pose proof HB as [Hle Hsp Hown Hns Hsw Htid Hthr Hmon Hfifo Hqo].
    apply cafter_spawn_inv; prj; unfold clog.
    - constructor; rewrite ?app_length; simpl length.
      + lia.
      + rewrite spawns_snoc. simpl. rewrite Hsp, <- HjL, Nat.add_1_r, seq_S. reflexivity.
      + rewrite forallb_snoc, Hown. simpl. apply Nat.ltb_lt. exact HjK.
      + rewrite status_raised_snoc. simpl. rewrite orb_false_r. exact Hns.
      + intros u Hu'. specialize (Hsw u Hu'). lia.
      + rewrite cg_log_snoc. simpl. rewrite app_nil_r. eapply Forall_impl; [|exact Htid]. simpl. intros; lia.
      + intros v wkv Hv. apply nth_error_snoc in Hv as [[Hlt Hv]|[-> ->]].
        * apply (WOK_other i (k_sem c)); [apply Hthr; exact Hv | discriminate | reflexivity | exact I].
        * unfold WOK. prj.
          assert (Hwh : holds (k_sem c) (S (length (k_workers c))) = false).
          { destruct (k_sem c) as [u|] eqn:E; [|reflexivity]. apply Nat.eqb_neq. specialize (Hsw u eq_refl). lia. }
          rewrite Hwh. split; [apply init_thread_out|]. split; [discriminate|]. split.
          -- rewrite putsq_snoc. simpl. rewrite app_nil_r. apply fw_lt_nil. exact Hqo.
          -- exists s, fl. split; [rewrite <- HjL; exact Es|]. rewrite proj_cg_snoc. simpl.
             rewrite app_nil_r, proj_none; [constructor | exact Htid].
      + rewrite cg_log_snoc. simpl. rewrite app_nil_r. exact Hmon.
      + rewrite gotten_snoc, putsq_snoc. simpl. rewrite !app_nil_r. exact Hfifo.
      + rewrite putsq_snoc. simpl. rewrite app_nil_r. eapply Forall_impl; [|exact Hqo]. simpl. intros; lia.
    - exact Hs0.
    - rewrite app_length. simpl. lia.
    - lia.
    - intros m Hm. apply (started_mt_bound j n mt m HjK Hm).
    - rewrite gotten_snoc. simpl. rewrite app_nil_r. exact Hg.
    - rewrite joins_snoc. simpl. rewrite app_nil_r. exact Hj.
    - rewrite has_intr_snoc. simpl. rewrite orb_false_r. exact Hi.
    - rewrite main_stops_snoc. simpl. rewrite app_nil_r. exact Hms.
    - exact Hst.
    - rewrite Hu, Hj, unreaped_of_nil, <- HjL, seq_S. reflexivity.
  Qed.

  Lemma cstep_get_inv c c' : CInv c -> k_main c = CMGet -> cstep_main i c = Some c' -> CInv c'.
  Proof.
    intros HI Em. unfold cstep_main. rewrite Em. cbv zeta.
    pose proof HI as [HB H0 Hj Hp Hr]. unfold cphase, crunning, cpend_join in *. rewrite Em in *.
    destruct Hp as (HL & Hnr & Hune). destruct Hr as (Hst & Hi & Hms & Hu). simpl in Hj. rewrite app_nil_r in Hj.
    assert (Hs0 : k_sem c <> Some 0) by (apply holds0_sem; [exact HI | unfold holds0; rewrite Em; reflexivity]).
    destruct (option_eqb Nat.eqb (ci_get_intr i) (Some (k_gets c))).
    - intro H; injection H as <-.
      apply cabort_inv; prj; snoc_main_readers; auto.
      + apply (cbase_main_ev _ _ _ _ _ _ CGetIntr HB); [reflexivity | auto].
      + unfold craise_exp. snoc_main_readers. rewrite !orb_true_r. reflexivity.
      + unfold cU. prj. snoc_main_readers. rewrite Hu, HL. reflexivity.
    - destruct (k_queue c) as [|w q] eqn:Eq; [discriminate|]. intro H; injection H as <-.
      constructor; [|main_clauses; auto ..].
      + apply (cbase_main_ev _ _ _ _ _ _ (CGet (QToken w)) HB); [reflexivity | auto].
      + split; [intro E; contradiction | discriminate].
      + rewrite map_app, Hj. reflexivity.
  Qed.

  Lemma cstep_join_inv c w c' : CInv c -> k_main c = CMJoin w -> cstep_main i c = Some c' -> CInv c'.
  Proof.
    intros HI Em. unfold cstep_main. rewrite Em.
    destruct (nth_error (k_workers c) w) as [wk|] eqn:En; [|discriminate].
    destruct (cw_done wk) eqn:Ed; [|discriminate]. cbv zeta. intro H; injection H as <-.
    pose proof HI as [HB H0 Hj Hp Hr]. unfold cphase, crunning, cpend_join in *. rewrite Em in *.
    destruct Hp as (HL & Hnr). destruct Hr as (Hst & Hi & Hms & Hu). simpl in Hj.
    assert (Hw : w < length (k_workers c)) by (apply nth_error_Some; congruence).
    assert (Hs0 : k_sem c <> Some 0) by (apply holds0_sem; [exact HI | unfold holds0; rewrite Em; reflexivity]).
    assert (HB1 : CBase (k_sem c) (clog c 0 (CJoin w)) (k_queue c) (k_workers c)).
    { apply (cbase_main_ev _ _ _ _ _ _ (CJoin w) HB); [|auto]. simpl. apply Nat.ltb_lt. lia. }
    assert (Hu1 : remove_nat w (k_unreaped c) = unreaped_of (length (k_workers c)) (joins (k_log c) ++ [w])).
    { rewrite Hu. apply unreaped_remove. }
    prj. destruct (remove_nat w (k_unreaped c)) as [|u us] eqn:Eu.
    - apply cfinish_inv; prj; snoc_main_readers; auto.
      + unfold craise_exp. snoc_main_readers. rewrite Hnr, Hi, (cb_nost _ _ _ _ HB). reflexivity.
      + split; [exact Hst|]. unfold cU. prj. snoc_main_readers.
        rewrite <- HL. symmetry. exact Hu1.
    - constructor; [exact HB1|main_clauses; auto ..].
      + split; [intro E; contradiction | discriminate].
      + repeat split; try assumption. discriminate.
  Qed.

  Lemma cstep_acq_inv c ws c' : CInv c -> k_main c = CMStopAcq ws -> cstep_main i c = Some c' -> CInv c'.
  Proof.
    intros HI Em. unfold cstep_main. rewrite Em.
    destruct (k_sem c) eqn:Es; [discriminate|]. destruct ws as [|w rest]; [discriminate|]. intro H; injection H as <-.
    pose proof HI as [HB H0 Hj Hp Hr]. unfold cphase, cpend_join in *. rewrite Em in *. rewrite Es in HB.
    destruct Hp as (HL & Hre & _ & Hsw & Hms). simpl in Hj. rewrite app_nil_r in Hj.
    constructor; [|main_clauses; auto ..].
    - apply (cbase_main_ev _ _ _ _ _ _ (CG EAcq) HB); [reflexivity | auto].
    - split; reflexivity.
    - split; [exact HL|]. split; [exact Hre|]. exists (k_stops c), w, rest. auto.
  Qed.

  Lemma cstep_call_inv c ws c' : CInv c -> k_main c = CMStopCall ws -> cstep_main i c = Some c' -> CInv c'.
  Proof.
    intros HI Em. unfold cstep_main. rewrite Em. cbv zeta. intro H; injection H as <-.
    pose proof HI as [HB H0 Hj Hp Hr]. unfold cphase, cpend_join in *. rewrite Em in *.
    destruct Hp as (HL & Hre & pre & w & rest & Ews & Hst & HU & Hms). simpl in Hj. rewrite app_nil_r in Hj.
    assert (Es : k_sem c = Some 0) by (apply H0; unfold holds0; rewrite Em; reflexivity).
    constructor; [|main_clauses; auto ..].
    - apply (cbase_main_ev _ _ _ _ _ _ (CG (ECall (TGuard GStop) _)) HB); [reflexivity|]. rewrite Es. simpl. auto.
    - rewrite Es. split; reflexivity.
    - split; [exact HL|]. split; [exact Hre|]. exists pre, w, rest. rewrite Hms. auto.
  Qed.

  Lemma cstep_rel_inv c ws b c' : CInv c -> k_main c = CMStopRel ws b -> cstep_main i c = Some c' -> CInv c'.
  Proof.
    intros HI Em. unfold cstep_main. rewrite Em. cbv zeta. intro H; injection H as <-.
    pose proof HI as [HB H0 Hj Hp Hr]. unfold cphase, cpend_join in *. rewrite Em in *.
    destruct Hp as (HL & Hre & pre & w & rest & Ews & Hst & HU & Hms). simpl in Hj. rewrite app_nil_r in Hj.
    assert (Es : k_sem c = Some 0) by (apply H0; unfold holds0; rewrite Em; reflexivity).
    assert (HB1 : CBase None (clog c 0 (CG ERel)) (k_queue c) (k_workers c)).
    { apply (cbase_main_ev _ _ _ _ _ _ (CG ERel) HB); [reflexivity|]. rewrite Es. simpl. auto. }
    unfold cU in HU. subst ws.
    assert (Hfin : b = true \/ rest = [] ->
              CInv (cfinish {| k_sem := None; k_log := clog c 0 (CG ERel); k_queue := k_queue c; k_main := CMStopRel (w :: rest) b;
                               k_unreaped := k_unreaped c; k_workers := k_workers c; k_gets := k_gets c;
                               k_mcalls := k_mcalls c; k_raised := k_raised c; k_stops := k_stops c;
                               k_live := k_live c |} true)).
    { intro Hc. apply cfinish_inv; unfold cU, craise_exp in *; prj; snoc_main_readers; auto; [discriminate|].
      rewrite Hms, Hst, <- HU.
      destruct Hc as [->| ->]; [|destruct b].
      - rewrite stops_expected_true. symmetry. apply firstn_snoc_exact.
      - rewrite stops_expected_true. symmetry. apply firstn_snoc_exact.
      - rewrite <- repeat_cons. change (false :: repeat false (length pre)) with (repeat false (S (length pre))).
        rewrite stops_expected_none by apply existsb_repeat_false. rewrite firstn_all. reflexivity. }
    destruct b; [apply Hfin; left; reflexivity|].
    destruct rest as [|r rest']; [apply Hfin; right; reflexivity|].
    constructor; [exact HB1|main_clauses; auto ..].
    - split; discriminate.
    - split; [exact HL|]. split; [exact Hre|]. split; [discriminate|]. split.
      + rewrite Hst, <- app_assoc. exact HU.
      + rewrite Hms, Hst, app_length, <- repeat_cons, Nat.add_1_r. reflexivity.
  Qed.

  Lemma cstep_inv c t c' : CInv c -> cstep i c t = Some c' -> CInv c'.
  Proof.
    intros HI. destruct t as [|w]; simpl.
    - destruct (k_main c) eqn:Em.
      + eapply cstep_spawn_inv; eauto.
      + eapply cstep_get_inv; eauto.
      + eapply cstep_join_inv; eauto.
      + eapply cstep_acq_inv; eauto.
      + eapply cstep_call_inv; eauto.
      + eapply cstep_rel_inv; eauto.
      + unfold cstep_main. rewrite Em. discriminate.
    - eapply cstep_worker_inv; eauto.
  Qed.

  Definition wbound (sf : list rcall * list nat) : nat := call_bound * (length (fst sf) + length br_script) + 7.
  Definition csum_from (j : nat) : nat := fold_right (fun sf a => wbound sf + a) 0 (skipn j (ci_suites i)).
  Definition cmw (c : cconf) : nat :=
    match k_main c with
    | CMDone => 0
    | CMStopRel ws _ => 3 * length ws + 1
    | CMStopCall ws => 3 * length ws + 2
    | CMStopAcq ws => 3 * length ws + 3
    | CMGet => 5 + 3 * length (k_unreaped c)
    | CMJoin _ => 6 + 3 * length (k_unreaped c)
    | CMSpawn j => 6 + 3 * length (k_unreaped c) + csum_from j
    end.
  Definition wmeasure (wk : cworker) : nat := tmeasure (cw_th wk) + (if cw_put wk then 0 else 3).
  Definition wsum (l : list cworker) : nat := fold_right (fun wk a => wmeasure wk + a) 0 l.
  Definition cmeas (c : cconf) : nat := cmw c + 2 * length (k_queue c) + wsum (k_workers c).

  Lemma csum_from_nth j sf : nth_error (ci_suites i) j = Some sf -> csum_from j = wbound sf + csum_from (S j).
  Proof. apply (lsum_skipn wbound). Qed.
  Lemma wsum_app a b : wsum (a ++ b) = wsum a + wsum b.
  Proof. apply (lsum_app wmeasure). Qed.

  Lemma init_thread_measure s fl :
    tmeasure (init_thread s fl (worker_fb (ci_base i))) <= call_bound * (length s + length br_script).
  Proof.
    unfold init_thread. eapply Nat.le_trans; [apply norm_measure|].
    unfold tmeasure, worker_fb, call_bound. destruct (ci_base i); simpl; lia.
  Qed.

  Lemma cabort_bound c :
    cmeas (cabort c) <= 3 * length (k_unreaped c) + 3 + 2 * length (k_queue c) + wsum (k_workers c).
  Proof. unfold cabort, cmeas, cmw. destruct (k_unreaped c) eqn:E; prj; simpl; lia. Qed.

  Lemma cafter_spawn_bound c k :
    cmeas (cafter_spawn i c k) <= 6 + 3 * length (k_unreaped c) + csum_from k + 2 * length (k_queue c) + wsum (k_workers c).
  Proof.
    unfold cafter_spawn. destruct (option_eqb Nat.eqb mt (Some k)); [eapply Nat.le_trans; [apply cabort_bound | lia]|].
    destruct (k <? length (ci_suites i)); unfold cmeas, cmw; prj; [lia|].
    destruct (k_unreaped c) eqn:E; prj; rewrite ?E; simpl; lia.
  Qed.

  Lemma cmeas_main c c' : k_workers c' = k_workers c ->
    cmw c' + 2 * length (k_queue c') < cmw c + 2 * length (k_queue c) -> cmeas c' < cmeas c.
  Proof. intros Hw H. unfold cmeas. rewrite Hw. lia. Qed.

  Lemma cstep_measure c t c' : cstep i c t = Some c' -> cmeas c' < cmeas c.
  Proof.
    destruct t as [|w]; simpl.
    - unfold cstep_main. destruct (k_main c) as [k| |w|ws|ws|ws b|] eqn:Em.
      + (* spawn: the new worker's weight wbound is taken out of csum_from k *)
        destruct (nth_error (ci_suites i) k) as [[s fl]|] eqn:Es; [|discriminate]. cbv zeta. intro H; injection H as <-.
        eapply Nat.le_lt_trans; [apply cafter_spawn_bound|]. prj. rewrite wsum_app, app_length.
        unfold cmeas, cmw. rewrite Em, (csum_from_nth _ _ Es). pose proof (init_thread_measure s fl) as Hm.
        unfold wbound, wsum, wmeasure. prj. simpl fst. cbn [fold_right cw_th cw_put length]. lia.
      + destruct (option_eqb Nat.eqb (ci_get_intr i) (Some (k_gets c))).
        * (* interrupted get: 5 + 3u falls to at most 3u + 3 *)
          cbv zeta. intro H; injection H as <-. eapply Nat.le_lt_trans; [apply cabort_bound|]. prj.
          unfold cmeas, cmw. rewrite Em. lia.
        * (* get: main's weight 5 + 3u becomes 6 + 3u, the queue (weight 2 each) loses one item *)
          destruct (k_queue c) as [|w q] eqn:Eq; [discriminate|]. intro H; injection H as <-.
          apply cmeas_main; [reflexivity|]. unfold cmw. prj. rewrite Em, Eq. simpl length. lia.
      + (* join: 6 + 3u becomes 5 + 3u' or 0, with u' <= u *)
        destruct (nth_error (k_workers c) w) as [wk|]; [|discriminate]. destruct (cw_done wk); [|discriminate].
        cbv zeta. intro H; injection H as <-. prj.
        pose proof (remove_nat_length w (k_unreaped c)) as Hl.
        destruct (remove_nat w (k_unreaped c)) as [|u us] eqn:E.
        * apply cmeas_main; [reflexivity|]. unfold cmw. prj. rewrite Em. lia.
        * apply cmeas_main; [reflexivity|]. unfold cmw. prj. rewrite Em. simpl length in *. lia.
      + (* the stop loop: 3|ws| + 3, + 2, + 1, then the next of ws or 0 *)
        destruct (k_sem c); [discriminate|]. destruct ws as [|w rest]; [discriminate|]. intro H; injection H as <-.
        apply cmeas_main; [reflexivity|]. unfold cmw. prj. rewrite Em. lia.
      + cbv zeta. intro H; injection H as <-.
        apply cmeas_main; [reflexivity|]. unfold cmw. prj. rewrite Em. lia.
      + cbv zeta. intro H; injection H as <-.
        destruct b; [|destruct ws as [|x [|y l']]].
        all: apply cmeas_main; [reflexivity|]; unfold cmw; prj; rewrite Em; simpl length; lia.
      + discriminate.
    - intro Hs. apply cstep_worker_unfold in Hs as (wk & e & s' & q' & wk' & En & Hev & ->).
      unfold cmeas. prj. change (cmw _) with (cmw c).
      (* a thread step costs the worker one unit, its token three: the queue grows by one *)
      assert (Hd : exists d, wmeasure wk' + d <= wmeasure wk /\ 2 * length q' < 2 * length (k_queue c) + d).
      { unfold wmeasure. destruct Hev as [(g & _ & Et & _ & -> & ->)|(_ & _ & Ep & _ & -> & ->)].
        - exists 1. apply tstep_measure in Et. split; lia.
        - exists 3. prj. rewrite Ep, app_length. simpl. split; lia. }
      destruct Hd as (d & Hd1 & Hd2). pose proof (lsum_upd wmeasure (k_workers c) d w wk wk' En Hd1) as Hu.
      change (lsum wmeasure) with wsum in Hu. clear - Hd2 Hu. lia.
  Qed.

  Lemma cinit_measure : cmeas (cinit i) <= cfuel i.
  Proof.
    unfold cinit. eapply Nat.le_trans; [apply cafter_spawn_bound|]. prj. simpl.
    unfold csum_from, cfuel. simpl skipn. induction (ci_suites i) as [|sf l IH]; cbn [fold_right length]; [lia|].
    unfold wbound, call_bound, br_script in *. cbn [length] in *. lia.
  Qed.

  Lemma clive c : CInv c -> call_done c = false -> exists t, t < cnthr c /\ cstep i c t <> None.
  Proof.
    intros HI Hnd. pose proof HI as [HB H0 Hj Hp Hr].
    pose proof HB as [Hle Hsp Hown Hns Hsw Htid Hthr Hmon Hfifo Hqo].
    destruct (k_sem c) as [[|w]|] eqn:Es.
    - (* main holds the semaphore *)
      exists 0. split; [unfold cnthr; lia|]. simpl. assert (Hh : holds0 c = true) by (apply H0; reflexivity).
      unfold holds0 in Hh. unfold cstep_main. destruct (k_main c); try discriminate; cbv zeta; discriminate.
    - (* worker w holds it *)
      specialize (Hsw _ eq_refl). destruct (nth_error_lt (k_workers c) w Hsw) as [wk En].
      destruct (Hthr w wk En) as (H1 & _). simpl in H1. rewrite Nat.eqb_refl in H1.
      destruct (t_in_can_step _ H1) as (e & th' & Hst & Hne).
      exists (S w). split; [unfold cnthr; lia|]. simpl. unfold cstep_worker. rewrite En, Hst, Es.
      destruct e; simpl; rewrite ?Nat.eqb_refl; congruence.
    - (* it is free *)
      unfold call_done in Hnd. destruct (forallb cw_done (k_workers c)) eqn:Ew.
      + rewrite andb_true_r in Hnd. exists 0. split; [unfold cnthr; lia|]. simpl.
        unfold cmain_done in Hnd. unfold cstep_main.
        unfold cphase in Hp. unfold crunning in Hr. unfold cpend_join in Hj.
        destruct (k_main c) as [k| |w|ws|ws|ws b|] eqn:Em; try discriminate.
        * destruct Hp as (_ & HkK & _). apply started_lt_n in HkK.
          destruct (nth_error (ci_suites i) k) as [[s fl]|] eqn:E; [cbv zeta; discriminate|].
          apply nth_error_None in E. fold n in E. lia.
        * destruct (option_eqb Nat.eqb (ci_get_intr i) (Some (k_gets c))); [cbv zeta; discriminate|].
          destruct Hp as (HL & _ & Hune). destruct Hr as (_ & _ & _ & Hu).
          destruct (k_unreaped c) as [|u us] eqn:Eu; [contradiction|].
          (* the unreaped worker u has put its token, and main has not got it yet *)
          assert (Hin : In u (unreaped_of (length (k_workers c)) (joins (k_log c)))) by (rewrite <- Hu; left; reflexivity).
          unfold unreaped_of in Hin. apply filter_In in Hin as [Hseq Hnot]. apply in_seq in Hseq.
          destruct (nth_error_lt (k_workers c) u) as [wk En]; [lia|].
          pose proof (forallb_nth _ _ _ _ Ew En) as Hd. unfold cw_done in Hd. apply andb_true_iff in Hd as [_ Hput].
          destruct (Hthr u wk En) as (_ & _ & H3 & _). rewrite Hput in H3.
          assert (Hq : In (QToken u) (gotten (k_log c) ++ map QToken (k_queue c))).
          { rewrite Hfifo. assert (Hf : In (QToken u) (fw u (putsq (k_log c)))) by (rewrite H3; left; reflexivity).
            apply filter_In in Hf. apply Hf. }
          simpl in Hj. rewrite app_nil_r in Hj. rewrite <- Hj in Hq. apply in_app_or in Hq as [Hq|Hq].
          -- apply in_map_iff in Hq as (x & Hx & Hxin). injection Hx as ->. apply memb_In in Hxin.
             rewrite Hxin in Hnot. discriminate.
          -- destruct (k_queue c); [contradiction | discriminate].
        * assert (Hw : w < length (k_workers c)).
          { rewrite Forall_forall in Hqo. apply (Hqo (QToken w)). rewrite <- Hfifo, <- Hj.
            apply in_or_app. left. apply in_map, in_or_app. right. left. reflexivity. }
          destruct (nth_error_lt _ _ Hw) as [wk En].
          rewrite En, (forallb_nth _ _ _ _ Ew En). cbv zeta. discriminate.
        * destruct Hp as (_ & _ & Hne & _). rewrite Es. destruct ws; [contradiction | discriminate].
      + destruct (forallb_false_nth _ _ Ew) as (w & wk & Hw & Hd). exists (S w). split.
        * unfold cnthr. assert (w < length (k_workers c)) by (apply nth_error_Some; congruence). lia.
        * simpl. unfold cstep_worker. rewrite Hw.
          destruct (Hthr w wk Hw) as (H1 & H2 & _). simpl in H1.
          destruct (finished (cw_th wk)) eqn:Ef.
          -- rewrite (finished_no_step _ Ef). unfold cw_done in Hd. rewrite Ef in Hd. simpl in Hd. rewrite Hd. simpl. discriminate.
          -- destruct (t_out_unfinished_acq _ H1 Ef) as [th' Hst]. rewrite Hst, Es. simpl. discriminate.
  Qed.

  Lemma crun_inv : (exists s, crun i = fold_left (gstep' (cstep i)) s (cinit i)) /\ CInv (crun i) /\ call_done (crun i) = true.
  Proof.
    apply (grun_done (cstep i) cnthr cmeas cstep_measure CInv call_done cstep_inv clive); [apply cinit_inv|].
    eapply Nat.le_trans; [apply gfold_measure; exact cstep_measure | apply cinit_measure].
  Qed.

  Lemma done_sem_free c : CInv c -> call_done c = true -> k_sem c = None.
  Proof.
    intros HI Hd. pose proof HI as [HB H0 Hj Hp Hr]. unfold call_done in Hd. apply andb_true_iff in Hd as [Hmd Hwd].
    unfold cmain_done in Hmd.
    destruct (k_sem c) as [[|w]|] eqn:Es; [| |reflexivity]; exfalso.
    - assert (Hh : holds0 c = true) by (apply H0; reflexivity). unfold holds0 in Hh. destruct (k_main c); discriminate.
    - destruct (nth_error_lt (k_workers c) w (cb_semw _ _ _ _ HB _ eq_refl)) as [wk En].
      destruct (cb_thr _ _ _ _ HB w wk En) as (H1 & _). simpl in H1. rewrite Nat.eqb_refl in H1.
      apply t_in_unfinished in H1. pose proof (forallb_nth _ _ _ _ Hwd En) as Hf. unfold cw_done in Hf. rewrite H1 in Hf. discriminate.
  Qed.
End Classic.

(* What a worker does when it runs alone: its script up to the first forwarder call that raises, then the
   fallback scripts (the broken-runner ErrorHolder). *)
Fixpoint pend (fl : list nat) (p : prog) (k : nat) : bool :=     (* does p end by raising *)
  match p with
  | PEnd => false
  | PRaise => true
  | PAcq r | PRel r | PLoc _ r => pend fl r k
  | PCall _ h r => if memb k fl then pend fl h (S k) else pend fl r (S k)
  end.

Fixpoint ltrace (fl : list nat) (s : list rcall) (f : fwd) (k : nat) : list gev * fwd * nat * bool :=
  match s with
  | [] => ([], f, k, false)
  | c :: r => let '(l, f', k') := ptrace fl (expand f c) f k in
              if pend fl (expand f c) k then (l, f', k', true)
              else let '(l2, f2, k2, b) := ltrace fl r f' k' in (l ++ l2, f2, k2, b)
  end.

Fixpoint rtrace (fl : list nat) (fbs : list (list rcall)) (f : fwd) (k : nat) : list gev :=
  match fbs with
  | [] => []
  | s :: r => let '(l, f', k', b) := ltrace fl s f k in if b then l ++ rtrace fl r f' k' else l
  end.

Definition ctrace (fl : list nat) (p : prog) (s : list rcall) (fbs : list (list rcall)) (f : fwd) (k : nat) : list gev :=
  let '(l, f', k') := ptrace fl p f k in
  if pend fl p k then l ++ rtrace fl fbs f' k'
  else let '(l2, f2, k2, b) := ltrace fl s f' k' in l ++ l2 ++ (if b then rtrace fl fbs f2 k2 else []).

Lemma ctrace_end fl s fbs f k :
  ctrace fl PEnd s fbs f k = (let '(l2, f2, k2, b) := ltrace fl s f k in l2 ++ (if b then rtrace fl fbs f2 k2 else [])).
Proof. reflexivity. Qed.

Lemma ltrace_cons fl c r f k : ltrace fl (c :: r) f k =
  (let '(l, f', k') := ptrace fl (expand f c) f k in
   if pend fl (expand f c) k then (l, f', k', true)
   else let '(l2, f2, k2, b) := ltrace fl r f' k' in (l ++ l2, f2, k2, b)).
Proof. reflexivity. Qed.

(* what follows a worker's pending forwarder call: the fallbacks if it raised, otherwise the script up to
   the first call that raises and then the fallbacks *)
Definition ltail (fl : list nat) (s : list rcall) (fbs : list (list rcall)) (f : fwd) (k : nat) : list gev :=
  let '(l2, f2, k2, b) := ltrace fl s f k in l2 ++ (if b then rtrace fl fbs f2 k2 else []).
Definition cres (fl : list nat) (s : list rcall) (b : option (list (list rcall))) (raised : bool) (f : fwd) (k : nat) : list gev :=
  match b with Some fbs => if raised then rtrace fl fbs f k else ltail fl s fbs f k | None => [] end.
Definition wtrace : thread -> list gev := residual cres.

Lemma ptr_pend fl rest p : forall f k,
  ptr fl p rest f k = (let '(l, f', k') := ptrace fl p f k in l ++ rest (pend fl p k) f' k').
Proof.
  induction p; intros f k; simpl; try reflexivity.
  - rewrite IHp. destruct (ptrace fl p f k) as [[l f'] k']. reflexivity.
  - rewrite IHp. destruct (ptrace fl p f k) as [[l f'] k']. reflexivity.
  - destruct (memb k fl).
    + rewrite IHp1. destruct (ptrace fl p1 f (S k)) as [[l f'] k']. reflexivity.
    + rewrite IHp2. destruct (ptrace fl p2 f (S k)) as [[l f'] k']. reflexivity.
  - apply IHp.
Qed.

Lemma ltail_cons fl c r fbs f k : ltail fl (c :: r) fbs f k = ptr fl (expand f c) (cres fl r (Some fbs)) f k.
Proof.
  rewrite ptr_pend. unfold ltail. rewrite ltrace_cons. destruct (ptrace fl (expand f c) f k) as [[l f'] k'].
  destruct (pend fl (expand f c) k); simpl; [reflexivity|].
  unfold ltail. destruct (ltrace fl r f' k') as [[[l2 f2] k2] b]. rewrite <- app_assoc. reflexivity.
Qed.

Lemma load_ltail fl fbs s : forall f k,
  let '(p', s', f') := load false s f in ltail fl s fbs f k = ptr fl p' (cres fl s' (Some fbs)) f' k.
Proof.
  induction s as [|c r IH]; intros f k; [reflexivity|].
  rewrite load_cons, ltail_cons, ptr_settle. destruct (settle (expand f c) f) as [p f1]. simpl fst; simpl snd.
  destruct p; try reflexivity. simpl. apply IH.
Qed.

Lemma resume_rtrace fl fbs : forall f k,
  let '(p, s', f', fbs') := resume fbs f in rtrace fl fbs f k = ptr fl p (cres fl s' (Some fbs')) f' k.
Proof.
  induction fbs as [|s r IH]; intros f k; [reflexivity|].
  rewrite resume_cons. pose proof (load_ltail fl r s f k) as HL. destruct (load false s f) as [[p s'] f'].
  assert (E : rtrace fl (s :: r) f k = ltail fl s r f k).
  { unfold ltail. simpl. destruct (ltrace fl s f k) as [[[l2 f2] k2] b]. destruct b; [reflexivity | symmetry; apply app_nil_r]. }
  rewrite E, HL. destruct p; try reflexivity. simpl. apply IH.
Qed.

Lemma norm_wtrace th : fb th <> None -> wtrace (norm th) = wtrace th /\ fb (norm th) <> None.
Proof.
  intro Hb. destruct (fb th) as [fbs|] eqn:Eb; [clear Hb | contradiction].
  unfold wtrace, residual at 2. rewrite ptr_settle, Eb. unfold norm. rewrite Eb.
  destruct (settle (pc th) (Tfr.fw th)) as [p f]. simpl fst; simpl snd.
  destruct p; try (split; [reflexivity | discriminate]).
  - pose proof (load_ltail (flt th) fbs (script th) f (ncall th)) as HL.
    destruct (load false (script th) f) as [[p' s'] f'].
    destruct p'; try (split; [symmetry; exact HL | discriminate]).
    pose proof (resume_rtrace (flt th) fbs f' (ncall th)) as HR. destruct (resume fbs f') as [[[p'' s''] f''] fbs'].
    split; [|discriminate]. simpl. rewrite HL. symmetry. exact HR.
  - pose proof (resume_rtrace (flt th) fbs f (ncall th)) as HR. destruct (resume fbs f) as [[[p'' s''] f''] fbs'].
    split; [symmetry; exact HR | discriminate].
Qed.

Lemma finished_wtrace th : tnf th -> finished th = true -> wtrace th = [].
Proof.
  intros [_ Hs] Hf. unfold finished in Hf. unfold wtrace, residual. destruct (pc th) eqn:E; try discriminate.
  rewrite (Hs eq_refl). simpl. destruct (fb th); reflexivity.
Qed.

Lemma tpath_wtrace a l b : tpath a l b -> fb a <> None -> wtrace a = l ++ wtrace b /\ fb b <> None.
Proof. exact (residual_tpath cres (fun b => b <> None) norm_wtrace a l b). Qed.

Lemma worker_trace s fl fbs lg th :
  tpath (init_thread s fl (Some fbs)) lg th -> lg ++ wtrace th = ctrace fl PEnd s fbs fwd0 0.
Proof.
  intro Hp.
  (* init_thread is norm of the thread that has just "returned" (PEnd) in front of its whole script *)
  assert (H0 : fb {| pc := PEnd; script := s; Tfr.fw := fwd0; ncall := 0; flt := fl; fb := Some fbs |} <> None)
    by discriminate.
  destruct (norm_wtrace _ H0) as [E0 Hb0].
  destruct (tpath_wtrace _ _ _ Hp Hb0) as [E1 _]. rewrite <- E1. exact E0.
Qed.

Lemma cbase_worker_trace i sem log q ws w wk : CBase i sem log q ws -> nth_error ws w = Some wk ->
  exists s fl fbs, nth_error (ci_suites i) w = Some (s, fl) /\ worker_fb (ci_base i) = Some fbs
    /\ proj (S w) (cg_log log) ++ wtrace (cw_th wk) = ctrace fl PEnd s fbs fwd0 0
    /\ (finished (cw_th wk) = true -> wtrace (cw_th wk) = []).
Proof.
  intros HB Hn. destruct (cb_thr i _ _ _ _ HB w wk Hn) as (H1 & _ & _ & s & fl & Hs & Hp).
  assert (Hfb : exists fbs, worker_fb (ci_base i) = Some fbs) by (unfold worker_fb; destruct (ci_base i); eauto).
  destruct Hfb as [fbs Hfb]. rewrite Hfb in Hp. exists s, fl, fbs.
  split; [exact Hs|]. split; [exact Hfb|]. split; [exact (worker_trace _ _ _ _ _ Hp)|].
  intro Hf. apply finished_wtrace; [|exact Hf]. destruct (holds sem (S w)); [|apply H1].
  apply t_in_unfinished in H1. congruence.
Qed.

Lemma pend_calls_then_nofault cs h r : forall k, pend [] (calls_then cs h r) k = pend [] r (k + length cs).
Proof.
  induction cs as [|c cs IH]; intro k; simpl; [rewrite Nat.add_0_r; reflexivity|].
  rewrite IH. f_equal. lia.
Qed.

Lemma pend_nofault f c k : c <> RRaise -> pend [] (expand f c) k = false.
Proof.
  intro Hne. destruct c as [a|tn tg|n|n|kd n|g|]; try reflexivity.
  - rewrite expand_outcome. simpl. rewrite pend_calls_then_nofault. reflexivity.
  - destruct g; reflexivity.
  - contradiction.
Qed.

Lemma ltrace_before_raise s : forall f k,
  exists f' k', ltrace [] s f k = (strace [] (fst (before_raise s)) f k, f', k', snd (before_raise s)).
Proof.
  induction s as [|c r IH]; intros f k.
  - exists f, k. reflexivity.
  - assert (G : c <> RRaise ->
               exists f' k', ltrace [] (c :: r) f k
                 = (strace [] (c :: fst (before_raise r)) f k, f', k', snd (before_raise r))).
    { intro Hne. rewrite ltrace_cons, strace_cons, (pend_nofault f c k Hne).
      destruct (ptrace [] (expand f c) f k) as [[l f1] k1].
      destruct (IH f1 k1) as (f' & k' & E). rewrite E. exists f', k'. reflexivity. }
    destruct c as [a|tn tg|n|n|kd n|g|];
      try (simpl before_raise; destruct (before_raise r) as [p b]; apply G; discriminate).
    exists f, k. reflexivity.
Qed.

Lemma before_raise_br : before_raise br_script = (br_script, false).
Proof. reflexivity. Qed.

Lemma br_trace f k : exists body, rtrace [] [br_script] f k = section body /\ br_body_okb body = true.
Proof.
  set (f2 := apply_lop LStartTest (apply_lop (LTags [] []) f)).
  assert (E : rtrace [] [br_script] f k =
              (let '(l, f', k') := ptrace [] (expand f2 (ROutcome KError br_id)) f2 k in l ++ [])).
  { change (rtrace [] [br_script] f k)
      with (let '(l, f', k', b) := ltrace [] br_script f k in if b then l ++ rtrace [] [] f' k' else l).
    destruct (ltrace_before_raise br_script f k) as (f' & k' & E). rewrite E, before_raise_br.
    simpl snd. simpl fst. cbv iota. reflexivity. }
  clearbody f2.
  destruct (ptrace_outcome [] f2 KError br_id k) as (f' & E2 & _). rewrite E2 in E. rewrite E, app_nil_r.
  rewrite cut_nofault. simpl fst.
  eexists. split; [reflexivity|].
  unfold replay. destruct (any_tags (f_global f2)), (any_tags (f_test f2)); reflexivity.
Qed.

Lemma ctrace_nofault s fbs : wf_script Out (fst (before_raise s)) = true ->
  exists f' k', ctrace [] PEnd s fbs fwd0 0
                = expected [] (fst (before_raise s)) sst0 0 ++ (if snd (before_raise s) then rtrace [] fbs f' k' else []).
Proof.
  intro Hw. destruct (ltrace_before_raise s fwd0 0) as (f' & k' & E). exists f', k'.
  rewrite ctrace_end, E, (strace_expected [] _ Out fwd0 sst0 0 Hw rel0). reflexivity.
Qed.

Lemma classic_worker_clause base full w s :
  proj (S w) full = ctrace [] PEnd s (match worker_fb base with Some x => x | None => [] end) fwd0 0 ->
  classic_worker_okb base full w (s, []) = true.
Proof.
  intro Hproj. unfold classic_worker_okb. simpl fst; simpl snd.
  pose proof (ctrace_nofault s (match worker_fb base with Some x => x | None => [] end)) as Hc.
  destruct (before_raise s) as [pre raises] eqn:Eb. simpl fst in Hc; simpl snd in Hc.
  destruct (wf_script Out pre) eqn:Ew; [|reflexivity].
  destruct (Hc eq_refl) as (f' & k' & Ec). rewrite Hproj, Ec.
  unfold worker_fb. destruct raises; destruct base; cbn [andb negb].
  - simpl rtrace. rewrite app_nil_r. apply (list_eqb_spec _ gev_eqb_spec). reflexivity.
  - destruct (br_trace f' k') as (body & -> & Hb).
    rewrite (is_prefix_app _ (eqb_spec_refl _ gev_eqb_spec)), skipn_exact. simpl.
    rewrite rev_app_distr. simpl. rewrite rev_involutive. exact Hb.
  - rewrite app_nil_r. apply (list_eqb_spec _ gev_eqb_spec). reflexivity.
  - rewrite app_nil_r. apply (list_eqb_spec _ gev_eqb_spec). reflexivity.
Qed.

Theorem classic_meets_spec : forall i, spec_okb (IClassic i) (model (IClassic i)) = true.
Proof.
  intro i. destruct (crun_inv i) as (_ & HI & Hd). unfold spec_okb, model. set (c := crun i) in *.
  pose proof (done_sem_free i c HI Hd) as Hsem.
  pose proof HI as [HB H0 Hj Hp Hr]. pose proof HB as [Hle Hsp Hown Hns Hsw Htid Hthr Hmon Hfifo Hqo].
  pose proof Hd as Hd'. unfold call_done in Hd'. apply andb_true_iff in Hd' as [Hmd Hwd].
  unfold cmain_done in Hmd. unfold cphase in Hp. destruct (k_main c) eqn:Em; try discriminate.
  destruct Hp as (HL & Hre & Hlive & Hstops & HLv). unfold craise_exp in Hre.
  cbn [o_trace o_raised o_live o_stops o_deadlock o_sem_free].
  apply andb_true_iff; split; [apply andb_true_iff; split; [apply andb_true_iff; split|]|].
  - apply common_done; cbn [o_trace o_raised o_live o_stops o_deadlock]; auto.
    + rewrite Hd. reflexivity.
    + rewrite Hsp, HL. reflexivity.
    + intros E. rewrite E in Hstops. rewrite Hstops. apply forallb_firstn. apply unreaped_lt.
    + intros E Ee. rewrite E in Hstops. rewrite Hstops, (stops_expected_none _ _ Ee). apply firstn_all.
    + intros E. rewrite E in Hstops. exact Hstops.
  - rewrite Hsem. reflexivity.
  - apply mon_sectb. rewrite Hmon, Hsem. reflexivity.
  - apply forallb_idx_spec. intros w [s fl] Hn. simpl Nat.add.
    apply nth_error_firstn in Hn as [HwK Hn].
    destruct (nth_error_lt (k_workers c) w) as [wk En]; [rewrite HL; exact HwK|].
    destruct (cbase_worker_trace i _ _ _ _ w wk HB En) as (s' & fl' & fbs & Hs' & Hfb & E & Hfin).
    rewrite Hn in Hs'. injection Hs' as <- <-.
    pose proof (forallb_nth _ _ _ _ Hwd En) as Hf. unfold cw_done in Hf. apply andb_true_iff in Hf as [Hf _].
    destruct fl as [|x fl]; [|unfold classic_worker_okb; simpl fst; simpl snd; destruct (before_raise s); reflexivity].
    apply classic_worker_clause. rewrite Hfb, <- E, (Hfin Hf). symmetry. apply app_nil_r.
Qed.

