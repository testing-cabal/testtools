(* Shared by C01, C02 and C03: the outcome a run reports and what it lets out, read off the
   program declaratively (Spec/Run.v: raised, user_handlers, claimed, outcome_of), from
   RunExtra.run_from_with_spec and the table facts of RunTable. *)
From TT Require Import Lib.Base Gen.Handlers Model.Run Spec.Run Proof.RunCore Proof.RunExtra Proof.RunTable.

(* which outcome is reported, and the exception run() lets out: on an instance that has been run before the
   handlers in front of the table are the ones inserted so far ([u0]), force_failure may still be set ([f0]) *)
Definition verdict_from (p : prog) (u0 : list (cls * outcome)) (f0 : bool) : outcome * option exc :=
  if skipped p then (OSkip, None) else decide_u (rev (inserted p) ++ u0) (collected_run p f0).
Definition verdict_of (p : prog) : outcome * option exc :=
  if skipped p then (OSkip, None) else decide_u (user_handlers p) (raised p).

Lemma verdict_from_fresh p : verdict_from p (p_handlers p) false = verdict_of p.
Proof. unfold verdict_from, verdict_of. fold (user_handlers p). now rewrite collected_run_fresh. Qed.
Lemma verdict_from_raises p u0 f0 e : snd (verdict_from p u0 f0) = Some e -> fst (verdict_from p u0 f0) = OErr.
Proof.
  unfold verdict_from, decide_u. destruct (skipped p); [discriminate|]. destruct (reported_for _ _) as [x|]; [|discriminate].
  cbn [fst snd]. destruct (uclaimed _ x) eqn:C; [discriminate | intros _; now apply unclaimed_is_error].
Qed.

(* the outcome calls of the run: the verdict's outcome when a handler is responsible for the reported
   exception (or nothing was caught); what the last resort reports - possibly nothing - when nobody is *)
Definition outs_with (lr : option outcome) (v : outcome * option exc) (d : list (dname * ocontent)) : list tev :=
  match snd v with
  | None => [TOut (fst v) d]
  | Some _ => match lr with Some o => [TOut o d] | None => [] end
  end.
Lemma calls_outs_with lr v d : calls (outs_with lr v d) = outs_with lr v d.
Proof. unfold outs_with. destruct (snd v); [destruct lr|]; reflexivity. Qed.

Lemma outs_with_some o v d : outs_with (Some o) v d = [TOut (match snd v with Some _ => o | None => fst v end) d].
Proof. unfold outs_with. destruct (snd v); reflexivity. Qed.
Lemma outs_with_returns lr v d : snd v = None -> outs_with lr v d = [TOut (fst v) d].
Proof. unfold outs_with. now intros ->. Qed.
Lemma outs_with_none_raises v d e : snd v = Some e -> outs_with None v d = [].
Proof. unfold outs_with. now intros ->. Qed.

Lemma conclude_verdict lr p u0 f0 D :
  let c := conclude_with lr p (handlers_of (rev (inserted p) ++ u0)) (collected_run p f0) D in
  exists d, fst (fst c) = outs_with lr (verdict_from p u0 f0) d /\ snd (fst c) = snd (verdict_from p u0 f0).
Proof.
  cbv zeta. unfold conclude_with, verdict_from, outs_with, decide_u, skipped.
  destruct (p_skip p) as [r|]; [eexists; split; reflexivity|]. rewrite choose_reported_for.
  destruct (reported_for _ _) as [e|]; [|eexists; split; reflexivity].
  pose proof (lookup_claimed (rev (inserted p) ++ u0) e) as H.
  destruct (lookup _ e) as [h|]; [destruct H as [-> ->] | rewrite H; destruct lr]; cbn [fst snd];
    first [eexists; split; reflexivity | exists []; split; reflexivity].
Qed.

(* the bracket for TestCase.run on an instance in ANY state: the calls on the result are startTest, the outcome,
   stopTest; the fuel supplied suffices; nothing is left over from an earlier run *)
Theorem run_from_with_verdict lr p s :
  exists s' d,
    run_from_with lr p s = (s', snd (verdict_from p (uh s) (force s)), false)
    /\ calls (tr s') = calls (tr s) ++ [TStart] ++ outs_with lr (verdict_from p (uh s) (force s)) d ++ [TStop]
    /\ map shape (log s') = map shape (log s) ++ expected_log p
    /\ stack s' = []
    /\ excs s' = collected_run p (force s) /\ uh s' = rev (inserted p) ++ uh s
    /\ force s' = force s || (negb (skipped p) && forced p)
    /\ attrs s' = attrs s.
Proof.
  destruct (run_from_with_spec lr p s) as (s' & tr0 & R & L & X & F & K & A & U & T & C0 & _ & _).
  destruct (conclude_verdict lr p (uh s) (force s) (prun (run_events p (force s)) (proj (reset s)))) as (d & Q1 & Q2).
  cbv zeta in *. rewrite Q2 in R. rewrite Q1 in T. exists s', d.
  split; [exact R|]. split; [|repeat split; assumption].
  rewrite T, !calls_app, C0, calls_outs_with, <- !app_assoc. reflexivity.
Qed.

Theorem run_from_verdict p s :
  exists s' d,
    run_from p s = (s', snd (verdict_from p (uh s) (force s)), false)
    /\ calls (tr s') = calls (tr s) ++ [TStart; TOut (fst (verdict_from p (uh s) (force s))) d; TStop]
    /\ map shape (log s') = map shape (log s) ++ expected_log p
    /\ stack s' = []
    /\ excs s' = collected_run p (force s) /\ uh s' = rev (inserted p) ++ uh s
    /\ force s' = force s || (negb (skipped p) && forced p)
    /\ attrs s' = attrs s.
Proof.
  destruct (run_from_with_verdict last_resort p s) as (s' & d & R & C & H). exists s', d.
  split; [exact R|]. split; [|exact H]. rewrite C, table_last_resort, outs_with_some.
  destruct (snd (verdict_from p (uh s) (force s))) eqn:E; [rewrite (verdict_from_raises _ _ _ _ E)|]; reflexivity.
Qed.

Theorem run_verdict p a0 :
  exists s d,
    run p a0 = (s, snd (verdict_of p), false)
    /\ calls (tr s) = [TStart; TOut (fst (verdict_of p)) d; TStop]
    /\ map shape (log s) = expected_log p
    /\ stack s = [].
Proof.
  destruct (run_from_verdict p (init p a0)) as (s & d & R & C & L & K & _).
  cbn [force init log tr uh] in *. rewrite verdict_from_fresh in *. exists s, d. repeat split; assumption.
Qed.

(* the verdict in Spec.Run's own words: the exception reported for (the first one nobody is
   responsible for, else the last) decides *)
Lemma verdict_of_reported p :
  skipped p = false ->
  verdict_of p = match reported p with
                 | None => (OSuccess, None)
                 | Some e => (outcome_of p e, if claimed p e then None else Some e)
                 end.
Proof. intros S. unfold verdict_of, decide_u. now rewrite S, reported_for_spec. Qed.
