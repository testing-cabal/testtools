(* C06 - match() returns None exactly when the documented predicate holds:
   structural induction over matcher expressions. *)
From Coq Require Import Permutation.
From TT Require Import Lib.Base Lib.EqbFacts Lib.ListFacts Lib.Sort Model.Matchers Spec.C06 Corr.C06 Proof.C06Setwise Proof.C06Leaves.

(* [matcher] is nested through lists, options and pairs, so the generated induction principle has no
   hypothesis for the sub-matchers; this one has Forall P (kids m) *)
Definition kids (m : matcher) : list matcher :=
  match m with
  | MatchesException _ _ _ (Some m') | Raises (Some m') | Not m' | AllMatch m' | AnyMatch m'
  | AfterPreprocessing _ _ m' | Annotate _ m' => [m']
  | MatchesAll _ ms | MatchesAny ms | MatchesListwise _ ms | MatchesSetwise _ ms => ms
  | MatchesDict kms | ContainsDict kms | ContainedByDict kms => map snd kms
  | MatchesStructure ams => map snd ams
  | _ => []
  end.

Section MatcherInd.
  Variable P : matcher -> Prop.
  Hypothesis step : forall m, Forall P (kids m) -> P m.

  Fixpoint matcher_kids_ind (m : matcher) : P m :=
    let one := fun m' => Forall_cons m' (matcher_kids_ind m') (Forall_nil P) in
    let lst := fix lst (ms : list matcher) : Forall P ms :=
                 match ms with [] => Forall_nil P | m' :: r => Forall_cons m' (matcher_kids_ind m') (lst r) end in
    let klst := fun K => fix klst (kms : list (K * matcher)) : Forall P (map snd kms) :=
                 match kms with
                 | [] => Forall_nil P
                 | (k, m') :: r => Forall_cons m' (matcher_kids_ind m') (klst r)
                 end in
    step m (match m return Forall P (kids m) with
            | MatchesException _ _ _ (Some m') | Raises (Some m') | Not m' | AllMatch m' | AnyMatch m'
            | AfterPreprocessing _ _ m' | Annotate _ m' => one m'
            | MatchesAll _ ms | MatchesAny ms | MatchesListwise _ ms | MatchesSetwise _ ms => lst ms
            | MatchesDict kms | ContainsDict kms | ContainedByDict kms => klst key kms
            | MatchesStructure ams => klst nat ams
            | _ => Forall_nil P
            end).
End MatcherInd.

Lemma is_none_leaf b : is_none (leaf b) = b.
Proof. destruct b; reflexivity. Qed.

Lemma is_none_any_loop rs : forall acc, is_none (any_loop rs acc) = existsb is_none rs.
Proof. induction rs as [|[d|] t IH]; intro acc; simpl; [reflexivity|apply IH|reflexivity]. Qed.

Lemma is_none_iff {A} (r : option A) b : (r = None <-> b = true) -> is_none r = b.
Proof. intro H. apply eq_true_iff_eq. rewrite is_none_true. exact H. Qed.

Lemma Forall_flat_map_In {A B} (P : B -> Prop) (R : A -> Prop) (f : A -> list B) l :
  (forall a, In a l -> Forall P (f a) -> R a) -> Forall P (flat_map f l) -> Forall R l.
Proof.
  intros H G. apply Forall_flat_map in G. apply Forall_forall. intros a Ha.
  apply (H a Ha). apply (proj1 (Forall_forall _ _) G a Ha).
Qed.

Lemma forallb_perm {A} (f : A -> bool) l l' : Permutation l l' -> forallb f l = forallb f l'.
Proof.
  induction 1 as [|x l l' _ IH|x y l|l l' l'' _ IH1 _ IH2]; simpl; [reflexivity|rewrite IH; reflexivity| |congruence].
  rewrite !andb_assoc, (andb_comm (f y)). reflexivity.
Qed.

Lemma is_none_labelled rs : is_none (labelled rs) = forallb is_none rs.
Proof. unfold labelled. induction rs as [|[d|] t IH]; simpl; [reflexivity|reflexivity|exact IH]. Qed.

Lemma is_none_dict_mis l : is_none (dict_mis l) = is_nil l.
Proof. destruct l; reflexivity. Qed.

Lemma is_none_sub_dict_of {A B} (e : list (key * A)) (o : list (key * B)) :
  is_none (sub_dict_of e o) = forallb (fun kv => has_key (fst kv) e) o.
Proof.
  unfold sub_dict_of. rewrite is_none_dict_mis. induction o as [|kv o IH]; simpl; [reflexivity|].
  destruct (has_key (fst kv) e); simpl; [exact IH|reflexivity].
Qed.

Lemma forallb_lookup_split {K V W} (look : K -> option V) (f : K * W -> V -> bool) (l : list (K * W)) :
  forallb (fun kw => match look (fst kw) with Some x => f kw x | None => false end) l
  = forallb (fun kw => match look (fst kw) with Some _ => true | None => false end) l
    && forallb (fun kw => match look (fst kw) with Some x => f kw x | None => true end) l.
Proof.
  induction l as [|kw l IH]; simpl; [reflexivity|]. rewrite IH.
  destruct (look (fst kw)) as [x|]; simpl; [|reflexivity].
  destruct (f kw x); simpl; [reflexivity|]. symmetry. apply andb_false_r.
Qed.

Section Main.
  Variable leafsem : nat -> val -> bool.
  Variable rank : nat -> nat -> nat.
  Notation M := (match_ leafsem rank).
  Notation Sm := (sem leafsem).
  Notation SA := subapps.
  (* match_ is a nested fixpoint with anonymous inner loops: these equations and cbn [match_] expose one
     combinator at a time; simpl is never used on match_ *)
  Lemma match_All fo ms v : M (MatchesAll fo ms) v = all_loop fo (map (fun m' => M m' v) ms) [].
  Proof. reflexivity. Qed.
  Lemma match_Any ms v : M (MatchesAny ms) v = any_loop (map (fun m' => M m' v) ms) [].
  Proof. reflexivity. Qed.
  Lemma match_Listwise fo ms l :
    M (MatchesListwise fo ms) (VList l) = listwise fo (Nat.eqb (length l) (length ms)) (zipw M ms l).
  Proof.
    simpl. f_equal. revert l.
    induction ms as [|m' r IH]; intros [|x l]; simpl; try reflexivity.
    f_equal. apply IH.
  Qed.
  Lemma match_Setwise s ms l :
    M (MatchesSetwise s ms) (VList l)
    = setwise_post (reorder (rank s) (map (fun m' => map (fun x => is_none (M m' x)) l) ms)) (length l).
  Proof. reflexivity. Qed.

  Definition good (mv : matcher * val) : Prop := local_dom leafsem mv = true /\ local_amb leafsem mv = false.
  Definition TF (m : matcher) : Prop := forall v, Forall good (SA m v) -> (M m v = None <-> Sm m v = true).

  Definition TFb (m : matcher) : Prop := forall v, Forall good (SA m v) -> is_none (M m v) = Sm m v.

  Lemma kids_same ms v :
    Forall TFb ms -> Forall good (flat_map (fun m' => SA m' v) ms) ->
    Forall (fun m' => is_none (M m' v) = Sm m' v) ms.
  Proof. intro IH. apply Forall_flat_map_In. intros m' Hm. apply (proj1 (Forall_forall _ _) IH m' Hm). Qed.

  Lemma kids_elements m' l :
    TFb m' -> Forall good (flat_map (SA m') l) -> Forall (fun x => is_none (M m' x) = Sm m' x) l.
  Proof. intro T. apply Forall_flat_map_In. intros x _. apply T. Qed.

  Lemma kids_lookup {K} (look : K -> option val) (kms : list (K * matcher)) :
    Forall (fun km => TFb (snd km)) kms ->
    Forall good (flat_map (fun km => match look (fst km) with Some x => SA (snd km) x | None => [] end) kms) ->
    Forall (fun km => match look (fst km) with
                      | Some x => is_none (M (snd km) x) = Sm (snd km) x
                      | None => True end) kms.
  Proof.
    intro IH. apply Forall_flat_map_In. intros km Hk G. pose proof (proj1 (Forall_forall _ _) IH km Hk) as T.
    destruct (look (fst km)); [apply T; exact G|exact I].
  Qed.

  Lemma tfb_listwise ms : Forall TFb ms -> forall l, Forall good (zipcat SA ms l) ->
    forall2b Sm ms l = Nat.eqb (length l) (length ms) && forallb is_none (zipw M ms l).
  Proof.
    induction 1 as [|m' ms T _ IH]; intros [|x l] G; simpl; try reflexivity.
    simpl in G. apply Forall_app in G as [G1 G2]. rewrite (IH l G2), (T x G1).
    rewrite !andb_assoc, (andb_comm (Sm m' x)). reflexivity.
  Qed.

  (* the inner loop of the three dict matchers as it stands in Model/Matchers.v (match_ has no name for it):
     this rewrites only while the goal shows that very fix, i.e. after cbn [match_] *)
  Lemma is_none_diffs kms obs :
    Forall (fun km => match lookup (fst km) obs with
                      | Some x => is_none (M (snd km) x) = Sm (snd km) x
                      | None => True end) kms ->
    is_none (dict_mis ((fix go (kms : list (key * matcher)) :=
                          match kms with
                          | [] => []
                          | (k, m') :: r =>
                              match lookup k obs with
                              | Some x => match M m' x with Some d => [d] | None => [] end
                              | None => []
                              end ++ go r
                          end) kms))
    = forallb (fun km => match lookup (fst km) obs with Some x => Sm (snd km) x | None => true end) kms.
  Proof.
    rewrite is_none_dict_mis. induction 1 as [|[k m'] r H _ IH]; simpl in *; [reflexivity|].
    destruct (lookup k obs) as [x|]; [|exact IH]. rewrite <- H.
    destruct (M m' x); [reflexivity|exact IH].
  Qed.

  Lemma dict_verdicts kms kvs :
    Forall (fun km => TFb (snd km)) kms ->
    Forall good (flat_map (fun km => match lookup (fst km) kvs with Some x => SA (snd km) x | None => [] end) kms) ->
    is_none (M (MatchesDict kms) (VDict kvs)) = Sm (MatchesDict kms) (VDict kvs)
    /\ is_none (M (ContainsDict kms) (VDict kvs)) = Sm (ContainsDict kms) (VDict kvs)
    /\ is_none (M (ContainedByDict kms) (VDict kvs)) = Sm (ContainedByDict kms) (VDict kvs).
  Proof.
    intros IH H. pose proof (kids_lookup (fun k => lookup k kvs) kms IH H) as E.
    pose proof (forallb_lookup_split (fun k => lookup k kvs) (fun km x => Sm (snd km) x) kms) as Sp.
    split; [|split]; cbn [match_ sem]; rewrite is_none_labelled; cbn [forallb].
    - (* MatchesDict: no key unknown, every key present, every entry passes *)
      rewrite !is_none_sub_dict_of, (is_none_diffs kms kvs E), andb_true_r, Sp. reflexivity.
    - (* ContainsDict: every key present, every entry passes *)
      rewrite is_none_sub_dict_of, (is_none_diffs kms kvs E), andb_true_r, Sp. reflexivity.
    - (* ContainedByDict: no key unknown, the entries that are there pass *)
      rewrite is_none_sub_dict_of, (is_none_diffs kms kvs E), andb_true_r. reflexivity.
  Qed.

  (* the loop of MatchesStructure, likewise (see is_none_diffs) *)
  Lemma is_none_attrs attrs ams :
    Forall (fun am => match getattr (fst am) attrs with
                      | Some x => is_none (M (snd am) x) = Sm (snd am) x
                      | None => True end) ams ->
    forallb is_none (map snd ((fix go (ams : list (nat * matcher)) :=
                                 match ams with
                                 | [] => []
                                 | (a, m') :: r =>
                                     (a, match getattr a attrs with
                                         | Some x => ann (M m' x)
                                         | None => Some MLeaf
                                         end) :: go r
                                 end) ams))
    = forallb (fun am => match getattr (fst am) attrs with Some x => Sm (snd am) x | None => false end) ams.
  Proof.
    induction 1 as [|[a m'] r H _ IH]; simpl in *; [reflexivity|]. rewrite IH.
    destruct (getattr a attrs) as [x|]; [|reflexivity]. rewrite is_none_ann, H. reflexivity.
  Qed.

  (* stated with tl so that the root is split off before the case analysis, while subapps is still folded *)
  Lemma good_root m v : Forall good (SA m v) -> good (m, v) /\ Forall good (tl (SA m v)).
  Proof.
    assert (E : SA m v = (m, v) :: tl (SA m v)) by (destruct m; reflexivity).
    rewrite E at 1. intro H. split; [exact (Forall_inv H)|exact (Forall_inv_tail H)].
  Qed.

  Theorem truth_functional_b : forall m, TFb m.
  Proof.
    apply matcher_kids_ind. intros m IH v H. apply good_root in H as [[D A] H].
    destruct m as [e|e|e|e|e|e|e|e|n|tys|e|ks| | |n|inst cs eargs vm|em|m'|fo ms|ms|m'|m'|fo ms|s ms
                  |kms|kms|kms|ams|p a m'|n m'];
      simpl in IH, H; try first [apply is_none_leaf | reflexivity].
    - (* SameMembers *)
      destruct v; try reflexivity. simpl in D |- *.
      rewrite is_none_leaf. apply eq_true_iff_eq, same_members_code. exact D.
    - (* KeysEqual *)
      destruct v; try reflexivity. simpl.
      apply eq_true_iff_eq. rewrite <- same_keys_code. destruct (list_eqb key_eqb _ _); simpl; split; congruence.
    - (* MatchesException *)
      destruct v; try reflexivity. simpl.
      destruct (existsb (issub c) cs); simpl; [|reflexivity].
      destruct inst; [apply is_none_leaf|].
      destruct vm as [m'|]; [|reflexivity]. apply (Forall_inv IH). exact H.
    - (* Raises: what is let through is not a verdict, see [run] *)
      destruct v; try discriminate D; [reflexivity|]. simpl in D, H |- *. unfold raises_rule.
      destruct em as [m'|]; simpl.
      + rewrite <- (Forall_inv IH _ H). destruct (M m' (VExc c args)); [|reflexivity].
        destruct (is_user c); reflexivity.
      + rewrite orb_false_r in D. rewrite D. reflexivity.
    - (* Not *)
      simpl. rewrite <- (Forall_inv IH v H). destruct (M m' v); reflexivity.
    - (* MatchesAll *)
      rewrite match_All, is_none_all_loop, forallb_map. apply forallb_ext_Forall, kids_same; assumption.
    - (* MatchesAny *)
      rewrite match_Any, is_none_any_loop, existsb_map. apply existsb_ext_Forall, kids_same; assumption.
    - (* AllMatch *)
      destruct v; try reflexivity. simpl. rewrite is_none_all_loop, forallb_map.
      apply forallb_ext_Forall, kids_elements; [exact (Forall_inv IH)|exact H].
    - (* AnyMatch *)
      destruct v; try reflexivity. simpl. rewrite is_none_any_loop, existsb_map.
      apply existsb_ext_Forall, kids_elements; [exact (Forall_inv IH)|exact H].
    - (* MatchesListwise *)
      destruct v; try reflexivity.
      rewrite match_Listwise, is_none_listwise. symmetry. apply tfb_listwise; assumption.
    - (* MatchesSetwise *)
      destruct v; try reflexivity. simpl in A, H.
      assert (E : map (fun m' => map (fun x => is_none (M m' x)) l) ms = map (fun m' => map (Sm m') l) ms).
      { apply map_ext_Forall. revert H. apply Forall_flat_map_In. intros m' Hm G.
        apply map_ext_Forall, kids_elements; [|exact G]. exact (proj1 (Forall_forall _ _) IH m' Hm). }
      rewrite match_Setwise, E. apply is_none_iff, setwise_exact_m. exact A.
    - (* MatchesDict *)
      destruct v; try reflexivity. apply dict_verdicts; [exact (proj1 (Forall_map _ _ _) IH)|exact H].
    - (* ContainsDict *)
      destruct v; try reflexivity. apply dict_verdicts; [exact (proj1 (Forall_map _ _ _) IH)|exact H].
    - (* ContainedByDict *)
      destruct v; try reflexivity. apply dict_verdicts; [exact (proj1 (Forall_map _ _ _) IH)|exact H].
    - (* MatchesStructure: sorting by attribute name does not change whether every verdict is None *)
      destruct v; try reflexivity.
      pose proof (kids_lookup (fun a => getattr a attrs) ams (proj1 (Forall_map _ _ _) IH) H) as E.
      cbn [match_ sem]. rewrite is_none_listwise.
      rewrite <- (forallb_perm _ _ _ (Permutation_map snd (isort_perm _ _))).
      apply (is_none_attrs attrs ams E).
    - (* AfterPreprocessing *)
      simpl in H |- *. destruct (apply_pp p v) as [w|]; [|reflexivity].
      destruct a; [rewrite is_none_ann|]; apply (Forall_inv IH); exact H.
    - (* Annotate *)
      simpl. rewrite is_none_ann. apply (Forall_inv IH). exact H.
  Qed.

  Theorem truth_functional : forall m, TF m.
  Proof. intros m v H. rewrite <- (truth_functional_b m v H). symmetry. apply is_none_true. Qed.
End Main.

Lemma raises_rule_prop (has_matcher : bool) r c c' :
  raises_rule has_matcher r c = OProp c' <-> c' = c /\ is_user c = false /\ (has_matcher = true -> r <> None).
Proof.
  assert (G : forall o, (forall x, o <> OProp x) -> forall Q : Prop, Q ->
            ((if is_user c then o else OProp c) = OProp c' <-> c' = c /\ is_user c = false /\ Q)).
  { intros o No Q HQ. destruct (is_user c); split.
    - intro H. destruct (No _ H).
    - intros (_ & H & _). discriminate H.
    - intro H. injection H as ->. repeat split. exact HQ.
    - intros (-> & _). reflexivity. }
  unfold raises_rule. destruct has_matcher, r as [d|]; simpl.
  - apply (G (OMis d)); discriminate.
  - split; [discriminate|]. intros (_ & _ & X). contradiction (X eq_refl eq_refl).
  - apply (G (OMis d)); discriminate.
  - apply (G OMatch); discriminate.
Qed.

Lemma good_of_dom_amb leafsem m v :
  dom leafsem m v = true -> amb leafsem m v = false -> Forall (good leafsem) (subapps m v).
Proof.
  unfold dom, amb. intros D A. apply Forall_forall. intros mv Hin. split.
  - apply (proj1 (forallb_forall _ _) D mv Hin).
  - apply (proj1 (existsb_false _ _) A mv Hin).
Qed.

Lemma tf_dom_b leafsem rank m v :
  dom leafsem m v = true -> amb leafsem m v = false -> is_none (match_ leafsem rank m v) = sem leafsem m v.
Proof. intros D A. apply truth_functional_b, good_of_dom_amb; assumption. Qed.

Theorem tf_dom leafsem rank m v :
  dom leafsem m v = true -> amb leafsem m v = false ->
  (match_ leafsem rank m v = None <-> sem leafsem m v = true).
Proof. intros D A. apply truth_functional, good_of_dom_amb; assumption. Qed.

Theorem pure leafsem rank1 rank2 m v :
  dom leafsem m v = true -> amb leafsem m v = false ->
  (match_ leafsem rank1 m v = None <-> match_ leafsem rank2 m v = None).
Proof. intros D A. rewrite (tf_dom leafsem rank1 m v D A), (tf_dom leafsem rank2 m v D A). tauto. Qed.

Theorem setwise_sound leafsem rank s ms l :
  (forall m' x, In m' ms -> In x l -> (match_ leafsem rank m' x = None <-> sem leafsem m' x = true)) ->
  match_ leafsem rank (MatchesSetwise s ms) (VList l) = None ->
  exists ms', Permutation ms ms' /\ Forall2 (fun m x => sem leafsem m x = true) ms' l.
Proof.
  intros IH H. rewrite match_Setwise in H. apply setwise_sound_m in H.
  apply (assign_matrix (sem leafsem)).
  erewrite map_ext_in; [exact H|]. intros m' Hm. simpl. apply map_ext_in. intros x Hx.
  symmetry. apply is_none_iff. apply IH; assumption.
Qed.

Theorem setwise_complete leafsem rank s ms l :
  dom leafsem (MatchesSetwise s ms) (VList l) = true -> amb leafsem (MatchesSetwise s ms) (VList l) = false ->
  (exists ms', Permutation ms ms' /\ Forall2 (fun m x => sem leafsem m x = true) ms' l) ->
  match_ leafsem rank (MatchesSetwise s ms) (VList l) = None.
Proof.
  intros D A H. apply (tf_dom leafsem rank _ _ D A). simpl. apply (assign_matrix (sem leafsem)). exact H.
Qed.

Lemma ov_eqb_eq a b : ov_eqb a b = true <-> a = b.
Proof. destruct a, b; simpl; eqb_components ltac:(apply Nat.eqb_eq). Qed.

Lemma plain_verdict ls rk m v : dom ls m v = true -> amb ls m v = false ->
  to_ov (match match_ ls rk m v with None => OMatch | Some d => OMis d end)
  = if sem ls m v then Matched else Mismatched.
Proof. intros D A. rewrite <- (tf_dom_b ls rk m v D A). destruct (match_ ls rk m v); reflexivity. Qed.

(* every call but Raises on a callable that raises lets nothing through *)
Lemma model_verdict m v acc runs rk :
  let i := {| i_m := m; i_v := v; i_accept := acc; i_runs := runs |} in
  idom i = true -> finding_F13 i = false -> to_ov (run (leafsem_of acc) rk m v) = expected i.
Proof.
  intros i D F. destruct m; try (apply plain_verdict; assumption).
  destruct v; try (apply plain_verdict; [exact D|destruct em; exact F]).
  unfold expected, idom, finding_F13, isem, i in *. simpl in *. unfold raises_rule.
  destruct em as [m'|]; simpl; [|destruct (is_user c); reflexivity].
  rewrite <- (tf_dom_b (leafsem_of acc) rk m' (VExc c args) D F).
  destruct (match_ (leafsem_of acc) rk m' (VExc c args)); simpl; [|reflexivity].
  destruct (is_user c); reflexivity.
Qed.

Lemma forall2b_Forall2 {A B} (p : A -> B -> bool) l : forall m,
  forall2b p l m = true <-> Forall2 (fun a b => p a b = true) l m.
Proof.
  induction l as [|a l IH]; intros [|b m]; simpl; try (split; [discriminate|intro H; inversion H]).
  - split; constructor.
  - rewrite andb_true_iff, IH, Forall2_cons_iff. reflexivity.
Qed.

Lemma forallb_lookup_some {K V W} (look : K -> option V) (f : K * W -> V -> bool) (l : list (K * W)) :
  forallb (fun kw => match look (fst kw) with Some x => f kw x | None => false end) l = true
  <-> forall kw, In kw l -> exists x, look (fst kw) = Some x /\ f kw x = true.
Proof.
  rewrite forallb_forall. split; intros H kw Hk; specialize (H kw Hk).
  - destruct (look (fst kw)) as [x|]; [eauto|discriminate].
  - destruct H as [x [-> Hx]]. exact Hx.
Qed.

Lemma forallb_lookup_all {K V W} (look : K -> option V) (f : K * W -> V -> bool) (l : list (K * W)) :
  forallb (fun kw => match look (fst kw) with Some x => f kw x | None => true end) l = true
  <-> forall kw x, In kw l -> look (fst kw) = Some x -> f kw x = true.
Proof.
  rewrite forallb_forall. split.
  - intros H kw x Hk E. specialize (H kw Hk). rewrite E in H. exact H.
  - intros H kw Hk. destruct (look (fst kw)) as [x|] eqn:E; [exact (H kw x Hk E)|reflexivity].
Qed.

(* finding F13: an input in the domain on which the greedy MatchesSetwise disagrees with the documented predicate *)
Definition f13_input : input :=
  {| i_m := MatchesSetwise 0 [MatchesAny [Equals (VInt 1); Equals (VInt 2)]; Equals (VInt 1)];
     i_v := VList [VInt 1; VInt 2];
     i_accept := [];
     i_runs := [[(0, [0; 1])]; [(0, [1; 0])]] |}.

Lemma refuted_F13 : idom f13_input = true /\ finding_F13 f13_input = true
                    /\ verdicts (model f13_input) = [Mismatched; Matched]
                    /\ expected f13_input = Matched
                    /\ spec_okb f13_input (model f13_input) = false.
Proof. vm_compute. repeat split. Qed.
