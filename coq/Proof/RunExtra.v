(* Lemmas about the machine of Model/Run.v on top of Proof/RunCore.v: the whole of _run_core,
   _run_prepared_result and TestCase.run characterised by the declarative reading of Spec/Run.v. *)
From TT Require Import Lib.Base Lib.ListFacts Gen.Handlers Model.Run Spec.Run Proof.RunCore.

(* the exceptions a run of [p] collects when force_failure is [f0] at its start *)
Definition collected (p : prog) (f0 : bool) : list exc :=
  raised_by_user p ++ (if f0 || forced p then [Exc CFail None] else []).
Definition core_events (p : prog) (f0 : bool) : list devent :=
  acts_events (snd (p_setup p)) ++ exc_events (setup_raise p)
  ++ (if setup_returns p
      then body_events p ++ acts_events (snd (p_teardown p)) ++ exc_events (teardown_raise p)
      else [])
  ++ flat_map entry_events (cleanup_entries p)
  ++ exc_events (if f0 || forced p then Some (Exc CFail None) else None).

Definition dresolve (d : dst) (c : content) : ocontent :=
  match c with
  | CLazy loc => OBytes (dcell loc d) | CSnap v => OBytes v
  | CTb => OTb | CStack => OStack | CReason r => OReason r
  end.
(* the dict as the result reads it when the detail part of the state is [d] *)
Definition details_at (d : dst) : list (dname * ocontent) :=
  map (fun nc => (fst nc, dresolve d (snd nc))) (d_dets d).
Lemma current_details_proj s : current_details s = details_at (proj s).
Proof.
  unfold current_details, details_at. cbn [proj d_dets]. apply map_ext. intros [n c]. destruct c; reflexivity.
Qed.

Definition collected_run (p : prog) (f0 : bool) : list exc := if skipped p then [] else collected p f0.
Definition run_events (p : prog) (f0 : bool) : list devent := if skipped p then [] else core_events p f0.

(* _run_prepared_result once everything has run: the outcome call (with the dict it carries), what
   run() lets out, the detail part afterwards; [lr] is what the RunTest's handler of last resort reports *)
Definition conclude_with (lr : option outcome) (p : prog) (hs : list handler) (X : list exc) (D : dst) : list tev * option exc * dst :=
  match p_skip p with
  | Some r => ([TOut OSkip [(n_reason, OReason (Some r))]], None, D)
  | None =>
      match choose hs X with
      | None => ([TOut OSuccess (details_at D)], None, D)
      | Some e =>
          match lookup hs e with
          | Some h =>
              let D' := if h_reason h then d_put n_reason (CReason (arg_of e)) D else D in
              (match h_out h with Some o => [TOut o (details_at D')] | None => [] end, None, D')
          | None => (match lr with Some o => [TOut o (details_at D)] | None => [] end, Some e, D)
          end
      end
  end.

(* for the RunTest TestCase.run builds by default *)
Definition conclude (p : prog) (hs : list handler) (X : list exc) (D : dst) : list tev * option exc * dst :=
  match p_skip p with
  | Some r => ([TOut OSkip [(n_reason, OReason (Some r))]], None, D)
  | None =>
      match choose hs X with
      | None => ([TOut OSuccess (details_at D)], None, D)
      | Some e =>
          match lookup hs e with
          | Some h =>
              let D' := if h_reason h then d_put n_reason (CReason (arg_of e)) D else D in
              (match h_out h with Some o => [TOut o (details_at D')] | None => [] end, None, D')
          | None => (match last_resort with Some o => [TOut o (details_at D)] | None => [] end, Some e, D)
          end
      end
  end.
Lemma conclude_default p hs X D : conclude p hs X D = conclude_with last_resort p hs X D.
Proof. reflexivity. Qed.

Lemma cleanup_entries_length p : length (cleanup_entries p) <= prog_size p.
Proof.
  unfold cleanup_entries, prog_size.
  pose proof (pending_length (snd (p_setup p))). pose proof (pending_length (snd (p_body p))).
  pose proof (pending_length (snd (p_teardown p))). destruct (setup_returns p); rewrite ?app_length; lia.
Qed.

(* what remains of _run_core once setUp (up to [s1]) and, if it returned, the test and tearDown (up to [s3])
   have run: the cleanups, then the failure that a set force_failure forces *)
Lemma core_cleanups fuel {s s1 s3 lg1 lg2 x1 x2 f1 f2 i1 i2 e1 e2} :
  ran s s1 lg1 x1 f1 i1 e1 -> ran s1 s3 lg2 x2 f2 i2 e2 ->
  let E := entries_of (stack s3) in
  length E <= fuel ->
  let fl := force s || (f1 || f2 || existsb entry_forces E) in
  exists s4,
    run_cleanups fuel s3 = (s4, negb (is_nil (flat_map (fun e => caught (entry_raise e)) E)), false)
    /\ force s4 = fl
    /\ let t := if fl then got_exception (Exc CFail None) s4 else s4 in
       ran s t (lg1 ++ lg2 ++ flat_map entry_log E)
           ((x1 ++ x2 ++ flat_map (fun e => caught (entry_raise e)) E) ++ (if fl then [Exc CFail None] else []))
           (f1 || f2 || existsb entry_forces E) (i1 ++ i2 ++ flat_map entry_inserts E)
           (e1 ++ e2 ++ flat_map entry_events E ++ exc_events (if fl then Some (Exc CFail None) else None))
       /\ stack t = [] /\ attrs t = undo_all (stack s3) (attrs s3).
Proof.
  intros R1 R2 E HE fl.
  destruct (run_cleanups_spec fuel s3 HE) as (s4 & I1 & I2 & I3 & I4). fold E in I1, I2.
  pose proof (ran_trans R1 (ran_trans R2 I2)) as R.
  exists s4. split; [exact I1|]. split.
  { destruct R as [_ _ F _ _ _]. rewrite F. apply f_equal, orb_assoc. }
  (* [R] is the conclusion up to the association of || and the forced failure at the end *)
  cbv zeta. destruct fl.
  - destruct (got_exception_gen [Exc CFail None] s4) as (G & K & A).
    split; [|split; [exact (eq_trans K I3) | exact (eq_trans A I4)]].
    eapply ran_eq; [exact (ran_trans R G) | ..].
    + apply app_nil_r.
    + reflexivity.
    + rewrite orb_false_r. apply orb_assoc.
    + apply app_nil_r.
    + now rewrite <- !app_assoc.
  - split; [|split; assumption].
    eapply ran_eq; [exact R | ..].
    + reflexivity.
    + symmetry. apply app_nil_r.
    + apply orb_assoc.
    + reflexivity.
    + now rewrite app_nil_r.
Qed.

(* what _run_core returns when setUp returned: [cb], [ct] are what the test and tearDown raised, [xc] what the cleanups
   raised, [fl] whether the failure is forced; success is reported iff nothing was caught *)
Lemma core_result (fl : bool) (cb ct xc : list exc) (e : exc) (s4 : st) :
  (let '(s5, f5) := if fl then (got_exception e s4, true) else (s4, false) in
   (if negb (is_nil cb) || negb (is_nil ct) || negb (is_nil xc) || f5 then s5
    else add_tr [TOut OSuccess (current_details s5)] s5, false))
  = (let t := if fl then got_exception e s4 else s4 in
     if is_nil (((cb ++ ct) ++ xc) ++ (if fl then [e] else [])) then add_tr [TOut OSuccess (current_details t)] t
     else t, false).
Proof.
  destruct fl.
  - rewrite !orb_true_r, !is_nil_app. cbn [is_nil]. now rewrite !andb_false_r.
  - cbv beta iota zeta. generalize (add_tr [TOut OSuccess (current_details s4)] s4). intros s'.
    now destruct cb, ct, xc.
Qed.

(* _run_core: [t] is the state when everything has run; a skip, or the success if nothing was caught, is
   reported from there *)
Theorem run_core_spec p fuel s :
  stack s = [] -> prog_size p <= fuel ->
  exists t,
    run_core p fuel s
    = (match p_skip p with
       | Some r => add_tr [TOut OSkip [(n_reason, OReason (Some r))]] t
       | None => if is_nil (collected_run p (force s)) then add_tr [TOut OSuccess (current_details t)] t else t
       end, false)
    /\ ran s t (expected_log p) (collected_run p (force s)) (negb (skipped p) && forced p) (inserted p)
           (run_events p (force s))
    /\ stack t = [] /\ attrs t = attrs s.
Proof.
  intros Hst Hfuel. unfold run_core. destruct (p_skip p) as [r|] eqn:Hskip.
  { (* the skip decorator: nothing runs *)
    exists s. unfold collected_run, run_events, expected_log, inserted, skipped. rewrite Hskip.
    split; [reflexivity|]. split; [apply ran_refl|]. split; [exact Hst | reflexivity]. }
  assert (Sk : skipped p = false) by (unfold skipped; now rewrite Hskip).
  pose proof (Nat.le_trans _ _ _ (cleanup_entries_length p) Hfuel) as HL.
  unfold collected_run, run_events, expected_log, inserted, collected, core_events, raised_by_user, forced.
  rewrite Sk. cbn [negb andb]. unfold cleanup_entries, setup_returns in *.
  destruct (run_method_spec (p_setup p) (p_up_setup p) s) as [A1 B1]. fold (setup_raise p) in A1.
  destruct (run_user_step A1 B1) as (s1 & -> & [R1 E1 T1]).
  rewrite Hst in E1, T1. cbn [entries_of flat_map undo_all fold_left] in E1, T1. rewrite app_nil_r in E1.
  destruct (setup_raise p) as [e1|]; cbn [raisedb].
  - (* setUp failed: only the cleanups, then the forced failure *)
    rewrite <- E1 in HL |- *.
    destruct (core_cleanups fuel R1 (ran_refl s1) HL) as (s2 & -> & F & R & K & A).
    rewrite F. rewrite <- (app_assoc (acts_events _) (exc_events _)) in R.
    eexists. split; [|split; [exact R|]; split; [exact K | exact (eq_trans A T1)]].
    rewrite !is_nil_app. cbn [caught]. pose proof (flatten_nonempty e1) as N.
    destruct (flatten e1); [contradiction | reflexivity].
  - destruct (run_test_method_spec p s1) as [A2 B2].
    destruct (run_user_step A2 B2) as (s2 & -> & [R2 E2 T2]).
    destruct (run_method_spec (p_teardown p) (p_up_teardown p) s2) as [A3 B3]. fold (teardown_raise p) in A3.
    destruct (run_user_step A3 B3) as (s3 & -> & [R3 E3 T3]).
    rewrite E1 in E2. rewrite E2 in E3. rewrite <- E3 in HL |- *. rewrite body_events_split.
    destruct (core_cleanups fuel R1 (ran_trans R2 R3) HL) as (s4 & -> & F & R & K & A).
    rewrite F, !raisedb_caught. rewrite <- (app_assoc (acts_events _) (exc_events _)) in R.
    eexists. split; [|split; [exact R|]; split; [exact K | congruence]].
    apply core_result.
Qed.

Lemma choose_some hs X : X <> [] -> exists e, choose hs X = Some e.
Proof.
  intros H. unfold choose. destruct (rev X) as [|l r] eqn:E.
  - apply (f_equal (@rev exc)) in E. rewrite rev_involutive in E. simpl in E. contradiction.
  - destruct (find _ _); eexists; reflexivity.
Qed.

(* [reports t s2 outs D]: from [t] to [s2] only outcome calls [outs] were made, and the detail part became [D] *)
Record reports (t s2 : st) (outs : list tev) (D : dst) : Prop := {
  rp_log : log s2 = log t; rp_excs : excs s2 = excs t; rp_force : force s2 = force t;
  rp_stack : stack s2 = stack t; rp_attrs : attrs s2 = attrs t; rp_uh : uh s2 = uh t;
  rp_tr : tr s2 = tr t ++ outs; rp_det : proj s2 = D }.

Lemma reports_refl t : reports t t [] (proj t).
Proof. constructor; rewrite ?app_nil_r; reflexivity. Qed.
Lemma proj_add_call e s : is_call e = true -> proj (add_tr [e] s) = proj s.
Proof.
  intros H. unfold proj. cbn [dets tbgen cells onexc tr add_tr set_tr]. rewrite hcalls_app.
  destruct e; try discriminate; cbn; rewrite app_nil_r; reflexivity.
Qed.
(* the outcome call reads the dict as it is then *)
Lemma reports_out t t1 D o :
  reports t t1 [] D -> reports t (add_tr [TOut o (current_details t1)] t1) [TOut o (details_at D)] D.
Proof.
  intros [? ? ? ? ? ? T P]. constructor; cbn [log excs force stack attrs uh tr add_tr set_tr]; try assumption.
  - rewrite T, app_nil_r, current_details_proj, P. reflexivity.
  - rewrite proj_add_call by reflexivity. exact P.
Qed.

(* the tail of _run_prepared_result, runtest.py:108-118: Model.Run.run_prepared_with is, by computation,
   run_core, then this, then stopTest (the `change` in run_from_with_spec) *)
Definition finish (lr : option outcome) (s1 : st) : st * option exc :=
  match choose (handlers_of (uh s1)) (excs s1) with
  | None => (s1, None)
  | Some e => match lookup (handlers_of (uh s1)) e with
              | Some h => (call_handler h e s1, None)
              | None => (match lr with
                         | Some o => add_tr [TOut o (current_details s1)] s1
                         | None => s1
                         end, Some e)
              end
  end.

Lemma finish_spec lr p t X :
  excs t = X -> (skipped p = true -> X = []) ->
  let c := conclude_with lr p (handlers_of (uh t)) X (proj t) in
  let r := finish lr (match p_skip p with
                      | Some r => add_tr [TOut OSkip [(n_reason, OReason (Some r))]] t
                      | None => if is_nil X then add_tr [TOut OSuccess (current_details t)] t else t
                      end) in
  snd r = snd (fst c) /\ reports t (fst r) (fst (fst c)) (snd c).
Proof.
  intros HX Hs. cbv zeta. unfold conclude_with, finish, skipped in *. destruct (p_skip p) as [r|].
  - cbn [uh excs add_tr set_tr]. rewrite HX, (Hs eq_refl). split; [reflexivity|].
    constructor; try reflexivity. now apply proj_add_call.
  - destruct X as [|x l]; cbn [is_nil].
    + cbn [uh excs add_tr set_tr]. rewrite HX. split; [reflexivity | apply reports_out, reports_refl].
    + rewrite HX. destruct (choose_some (handlers_of (uh t)) (x :: l)) as [e ->]; [discriminate|].
      destruct (lookup (handlers_of (uh t)) e) as [h|]; cbn [fst snd]; (split; [reflexivity|]).
      * (* a handler claims it; the generated skip handler first records the reason *)
        unfold call_handler.
        assert (Q : reports t (if h_reason h then add_detail n_reason (CReason (arg_of e)) t else t) []
                            (if h_reason h then d_put n_reason (CReason (arg_of e)) (proj t) else proj t)).
        { destruct (h_reason h); [constructor; rewrite ?app_nil_r; reflexivity | apply reports_refl]. }
        destruct (h_out h); [apply reports_out|]; exact Q.
      * (* nobody does: the handler of last resort, and it propagates *)
        destruct lr; [apply reports_out|]; apply reports_refl.
Qed.

Theorem run_from_with_spec lr p s :
  let X := collected_run p (force s) in
  let hs := handlers_of (rev (inserted p) ++ uh s) in
  let D := prun (run_events p (force s)) (proj (reset s)) in
  let c := conclude_with lr p hs X D in
  exists s' tr0,
    run_from_with lr p s = (s', snd (fst c), false)
    /\ map shape (log s') = map shape (log s) ++ expected_log p
    /\ excs s' = X
    /\ force s' = force s || (negb (skipped p) && forced p)
    /\ stack s' = [] /\ attrs s' = attrs s
    /\ uh s' = rev (inserted p) ++ uh s
    /\ tr s' = tr0 ++ fst (fst c) ++ [TStop]
    /\ calls tr0 = calls (tr s) ++ [TStart]
    /\ hcalls tr0 = d_calls D
    /\ proj s' = snd c.
Proof.
  cbv zeta. set (s0 := set_excs [] (add_tr [TStart] (reset s))).
  destruct (run_core_spec p (S (prog_size p)) s0 eq_refl (Nat.le_succ_diag_r _)) as (t & R & [L X F C U P] & K & A).
  change (run_from_with lr p s)
    with (let '(s1, oof) := run_core p (S (prog_size p)) s0 in
          let '(s2, pr) := finish lr s1 in (add_tr [TStop] s2, pr, oof)).
  rewrite R. clear R.
  (* [s0] is [s] after _reset and startTest *)
  assert (P0 : proj s0 = proj (reset s)).
  { unfold s0, proj. cbn [dets tbgen cells onexc tr add_tr set_tr set_excs]. rewrite hcalls_app. cbn. now rewrite app_nil_r. }
  rewrite P0 in P. subst s0.
  cbn [log excs force attrs uh tr add_tr set_tr set_excs reset set_tbgen set_dets set_stack app] in *.
  assert (Hs : skipped p = true -> collected_run p (force s) = []) by (unfold collected_run; now intros ->).
  destruct (finish_spec lr p t _ X Hs) as [F1 [Q1 Q2 Q3 Q4 Q5 Q6 Q7 Q8]]. rewrite U, P in F1, Q7, Q8.
  destruct (finish lr _) as [s2 pr]. cbn [fst snd] in *. subst pr.
  exists (add_tr [TStop] s2), (tr t). cbn [log excs force stack attrs uh tr add_tr set_tr].
  split; [reflexivity|].
  split; [congruence|]. split; [congruence|]. split; [congruence|].
  split; [congruence|]. split; [congruence|]. split; [congruence|].
  split; [rewrite Q7, app_assoc; reflexivity|].
  split; [rewrite C, calls_app; reflexivity|].
  split; [rewrite <- P; reflexivity|].
  rewrite proj_add_call by reflexivity. exact Q8.
Qed.

Theorem run_from_spec p s :
  let X := collected_run p (force s) in
  let hs := handlers_of (rev (inserted p) ++ uh s) in
  let D := prun (run_events p (force s)) (proj (reset s)) in
  let c := conclude p hs X D in
  exists s' tr0,
    run_from p s = (s', snd (fst c), false)
    /\ map shape (log s') = map shape (log s) ++ expected_log p
    /\ excs s' = X
    /\ force s' = force s || (negb (skipped p) && forced p)
    /\ stack s' = [] /\ attrs s' = attrs s
    /\ uh s' = rev (inserted p) ++ uh s
    /\ tr s' = tr0 ++ fst (fst c) ++ [TStop]
    /\ calls tr0 = calls (tr s) ++ [TStart]
    /\ hcalls tr0 = d_calls D
    /\ proj s' = snd c.
Proof. exact (run_from_with_spec last_resort p s). Qed.

(* whatever the factory of the case is and however it is installed, also when it cannot be called with
   last_resort= (fix F27): Model.Run.runner_last_resort gives the same handler of last resort on both branches
   (C01 carries the configuration in its input; C02, C03, C05 sample configured cases on this ground) *)
Theorem factory_irrelevant r p s : run_from_runner r p s = run_from p s.
Proof.
  unfold run_from_runner, run_from, runner_last_resort. now destruct (accepts_last_resort (r_factory r)).
Qed.

(* a fresh run: nothing forced *)
Lemma raised_skipped p : skipped p = true -> raised p = [].
Proof. intros S. unfold raised, raised_by_user, forced_failure. now rewrite S. Qed.
Lemma collected_run_fresh p : collected_run p false = raised p.
Proof.
  unfold collected_run, collected, raised, raised_by_user, forced_failure. destruct (skipped p); reflexivity.
Qed.
Lemma run_events_fresh p : run_events p false = events p.
Proof.
  unfold run_events, core_events, events, forced_failure. destruct (skipped p); [reflexivity|].
  cbn [negb andb orb]. destruct (forced p); reflexivity.
Qed.

Lemma cls_eqb_refl a : cls_eqb a a = true.
Proof. apply cls_eqb_spec; reflexivity. Qed.
