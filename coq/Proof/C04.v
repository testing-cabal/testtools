(* A stack state is its underlying results (lvs) plus a part no call changes (frame).  Every call acts on each
   result on its own, as a function of that part (step_ok, stop_at_ok, trajectory), so each clause is a fact about
   one result over a history (stopped_after, core_inv_holds), started from `setup`.  The scheduler for several
   forwarders and the confinement of F18 are independent of this. *)
From Coq Require Import String.
From TT Require Import Lib.Base Lib.EqbFacts Lib.ListFacts Lib.Count Gen.Resulttabs Model.Result Spec.C04 Corr.C04 Proof.Scan.

Lemma Forall2_length {A B} (R : A -> B -> Prop) l m : Forall2 R l m -> length l = length m.
Proof. induction 1; simpl; congruence. Qed.

Lemma Forall2_cons_inv {A B} (R : A -> B -> Prop) x y l m : Forall2 R (x :: l) (y :: m) -> R x y /\ Forall2 R l m.
Proof. intro H. inversion H; subst. split; assumption. Qed.

Lemma Forall2_diag {A} (R : A -> A -> Prop) l : (forall x, R x x) -> Forall2 R l l.
Proof. intro H. induction l; constructor; auto. Qed.

Lemma forall2b_maps {A B C} (p : B -> C -> bool) (f : A -> B) (g : A -> C) l :
  forall2b p (map f l) (map g l) = forallb (fun x => p (f x) (g x)) l.
Proof. induction l as [|x r IH]; simpl; [reflexivity|]. rewrite IH. reflexivity. Qed.

Lemma map_const_length {A B C} (c : C) (l : list A) (m : list B) :
  length l = length m -> map (fun _ => c) l = map (fun _ => c) m.
Proof. revert m. induction l; intros [|y m] H; simpl in *; try discriminate; [reflexivity|]. f_equal. auto. Qed.

Lemma forallb_const {A} (b : bool) (p : A -> bool) l : l <> [] -> Forall (fun x => p x = b) l -> forallb p l = b.
Proof.
  intros Hn H. induction H as [|x r Hx Hr IH]; [contradiction|]. simpl. rewrite Hx.
  destruct r; [apply andb_true_r|]. rewrite IH by discriminate. destruct b; reflexivity.
Qed.

Lemma table_failfast k : in_words (status_of k) failfast_statuses = bad k.
Proof. destruct k; reflexivity. Qed.

Section node_ind'.
  Variable P : node -> Prop.
  Hypothesis HR : forall r, P (NTR r).
  Hypothesis HS : forall e, P (NE2S e).
  Hypothesis HX : forall f, P (NFor f).
  Hypothesis HM : forall l, Forall (fun ec => P (snd ec)) l -> P (NMulti l).
  Hypothesis HF : forall ff e x, P x -> P (NTFR ff e x).
  Hypothesis HO : forall e x, P x -> P (NE2O e x).
  Hypothesis HD : forall ff x, P x -> P (NDeco ff x).
  Fixpoint node_ind' (n : node) : P n :=
    let fix go (l : list (bool * node)) : Forall (fun ec => P (snd ec)) l :=
      match l with [] => Forall_nil _ | ec :: r => Forall_cons ec (node_ind' (snd ec)) (go r) end in
    match n with
    | NTR r => HR r | NE2S e => HS e | NFor f => HX f | NMulti l => HM l (go l)
    | NTFR ff e x => HF ff e x (node_ind' x) | NE2O e x => HO e x (node_ind' x)
    | NDeco ff x => HD ff x (node_ind' x)
    end.
End node_ind'.

Inductive leaf := LTR (r : tr) | LE2S (e : e2s) | LFor (f : fo).
Definition leaf_stopped (l : leaf) : bool :=
  match l with LTR r => tr_stopped r | LE2S e => e_stopped e | LFor f => fo_stopped f end.
Definition leaf_stop (l : leaf) : leaf :=
  match l with LTR r => LTR (tr_stop r) | LE2S e => LE2S (e2s_stop e) | LFor f => LFor (fo_stop f) end.
Definition leaf_ok (l : leaf) : bool := match l with LTR r => tr_ok r | LE2S e => e2s_ok e | LFor f => fo_ok f end.
Definition leaf_out (l : leaf) : list summary := match l with LTR r => tr_out r | LE2S _ | LFor _ => [] end.
Definition leaf_ff (l : leaf) : bool := match l with LTR r => tr_ff r | LE2S e => e_ff e | LFor f => fo_ff f end.
(* startTestRun clears shouldStop on testtools' own results only *)
Definition leaf_resets (l : leaf) : bool := match l with LFor _ => false | _ => true end.
Definition leaf_step (l : leaf) (o : op) : leaf :=
  match l with LTR r => LTR (tr_step r o) | LE2S e => LE2S (e2s_step e o) | LFor f => LFor (fo_step f o) end.

Fixpoint lvs (n : node) : list leaf :=
  match n with
  | NTR r => [LTR r]
  | NE2S e => [LE2S e]
  | NFor f => [LFor f]
  | NMulti l => flat_map (fun ec => lvs (snd ec)) l
  | NTFR _ _ x | NE2O _ x | NDeco _ x => lvs x
  end.

Lemma leaf_stops_lvs n : leaf_stops n = map leaf_stopped (lvs n).
Proof.
  induction n as [r|e|f|l IH|ff e x IH|e x IH|ff x IH] using node_ind'; simpl; try reflexivity; try exact IH.
  rewrite map_flat_map. apply flat_map_ext_Forall. exact IH.
Qed.

Lemma leaf_outs_lvs n : leaf_outs n = map leaf_out (lvs n).
Proof.
  induction n as [r|e|f|l IH|ff e x IH|e x IH|ff x IH] using node_ind'; simpl; try reflexivity; try exact IH.
  rewrite map_flat_map. apply flat_map_ext_Forall. exact IH.
Qed.

Lemma was_ok_lvs n : was_ok n = forallb leaf_ok (lvs n).
Proof.
  induction n as [r|e|f|l IH|ff e x IH|e x IH|ff x IH] using node_ind'; simpl;
    try (rewrite andb_true_r; reflexivity); try exact IH.
  rewrite forallb_flat_map. apply forallb_ext_Forall. exact IH.
Qed.

Lemma should_stop_lvs n : should_stop n = existsb leaf_stopped (lvs n).
Proof.
  induction n as [r|e|f|l IH|ff e x IH|e x IH|ff x IH] using node_ind'; simpl;
    try (rewrite orb_false_r; reflexivity); try exact IH.
  rewrite existsb_flat_map. apply existsb_ext_Forall. exact IH.
Qed.

Lemma should_stop_any n : should_stop n = existsb (fun b => b) (leaf_stops n).
Proof. rewrite should_stop_lvs, leaf_stops_lvs, existsb_map. reflexivity. Qed.

Lemma lvs_stop n : lvs (stop n) = map leaf_stop (lvs n).
Proof.
  induction n as [r|e|f|l IH|ff e x IH|e x IH|ff x IH] using node_ind'; simpl; try reflexivity; try exact IH.
  rewrite flat_map_concat_map, map_map, <- flat_map_concat_map, map_flat_map.
  apply flat_map_ext_Forall. exact IH.
Qed.

Lemma fo_stopped_outcome f k d : fo_stopped (fo_outcome f k d) = fo_stopped f || (bad k && fo_ff f).
Proof.
  (* an unexpected success that degrades to addFailure lands in a method that is just as bad *)
  assert (L : bad (fo_lands (fo_caps f) k) = bad k).
  { destruct k; try reflexivity. simpl. destruct (fc_uxs (fo_caps f)); reflexivity. }
  unfold fo_outcome. cbn [fo_stopped]. rewrite L.
  destruct (fo_stopped f), (bad k), (fo_ff f), (fc_failfast (fo_caps f)), (fc_acts (fo_caps f)); reflexivity.
Qed.

Lemma leaf_ff_step l o : leaf_ff (leaf_step l o) = leaf_ff l.
Proof.
  destruct l as [r|e|f]; destruct o; try reflexivity; simpl; unfold tr_outcome; simpl.
  - destruct (bad k && tr_ff r); reflexivity.
  - destruct (tr_text r); reflexivity.
  - destruct (bad k && tr_ff r); reflexivity.
Qed.

Lemma leaf_stopped_step l m :
  leaf_stopped (leaf_step l m) =
  match m with
  | StartRun => if leaf_resets l then false else leaf_stopped l
  | _ => (is_bad_call m && leaf_ff l) || leaf_stopped l
  end.
Proof.
  destruct l as [r|e|f]; destruct m; try reflexivity; cbn [leaf_step leaf_stopped leaf_ff is_bad_call].
  - unfold tr_step, tr_outcome. destruct (bad k && tr_ff r); reflexivity.
  - unfold tr_step. destruct (tr_text r); reflexivity.
  - unfold tr_step, tr_outcome. cbn [tr_start_test tr_ff]. destruct (bad k && tr_ff r); reflexivity.
  - cbn [e2s_step e2s_outcome e_stopped e_ff]. rewrite table_failfast, andb_comm. apply orb_comm.
  - cbn [e2s_step e2s_outcome e2s_start_test e_stopped e_ff]. rewrite table_failfast, andb_comm. apply orb_comm.
  - cbn [fo_step]. rewrite fo_stopped_outcome. apply orb_comm.
  - cbn [fo_step]. rewrite fo_stopped_outcome. apply orb_comm.
Qed.

Lemma leaf_self_stop l o : is_bad_call o = true -> leaf_ff l = true -> leaf_stop (leaf_step l o) = leaf_step l o.
Proof.
  intros Hb Hf.
  assert (Fix : forall x, leaf_stopped x = true -> leaf_stop x = x).
  { intros [[] | [] | []]; simpl; intros ->; reflexivity. }
  apply Fix. rewrite leaf_stopped_step, Hb, Hf.
  destruct o; try discriminate; reflexivity.
Qed.

(* what no call changes: the tree shape with every failfast attribute *)
Inductive fr :=
| FL (ff : bool)
| FM (l : list (bool * fr))
| FT (ff e : bool) (x : fr)
| FO (e : bool) (x : fr)
| FD (ff : option bool) (x : fr).

Fixpoint frame (n : node) : fr :=
  match n with
  | NTR r => FL (tr_ff r)
  | NE2S e => FL (e_ff e)
  | NFor f => FL (fo_ff f)
  | NMulti l => FM (map (fun ec => (fst ec, frame (snd ec))) l)
  | NTFR ff e x => FT ff e (frame x)
  | NE2O e x => FO e (frame x)
  | NDeco ff x => FD ff (frame x)
  end.

(* has_ff, get_ff, e2o_get of Model.Result, read off the frame *)
Definition fhas (f : fr) : bool := match f with FD None _ => false | _ => true end.
Fixpoint fget (f : fr) : bool :=
  match f with
  | FL ff => ff
  | FM l => match l with ec :: _ => if fhas (snd ec) then fget (snd ec) else fst ec | [] => false end
  | FT ff _ _ => ff
  | FO e x => if fhas x then fget x else e
  | FD (Some b) _ => b
  | FD None _ => false
  end.
Definition fe2o_get (ec : bool * fr) : bool := if fhas (snd ec) then fget (snd ec) else fst ec.

Lemma has_ff_frame n : has_ff n = fhas (frame n).
Proof. destruct n as [r|e|f|l|ff e x|e x|[b|] x]; reflexivity. Qed.

Lemma get_ff_frame n : get_ff n = fget (frame n).
Proof.
  induction n as [r|e|f|l IH|ff e x IH|e x IH|ff x IH] using node_ind'; simpl; try reflexivity.
  - destruct IH as [|ec r H _]; simpl; [reflexivity|]. rewrite <- has_ff_frame, H. reflexivity.
  - rewrite <- has_ff_frame, IH. reflexivity.
Qed.

Lemma e2o_get_frame ec : e2o_get ec = fe2o_get (fst ec, frame (snd ec)).
Proof. unfold e2o_get, fe2o_get; simpl. rewrite <- has_ff_frame, <- get_ff_frame. reflexivity. Qed.

Lemma frame_stop n : frame (stop n) = frame n.
Proof.
  induction n as [r|e|f|l IH|ff e x IH|e x IH|ff x IH] using node_ind'; simpl; try reflexivity;
    try (rewrite IH; reflexivity).
  f_equal. rewrite map_map. apply map_ext_Forall. eapply Forall_impl; [|exact IH].
  intros ec H. simpl. rewrite H. reflexivity.
Qed.

Lemma frame_if (c : bool) x : frame (if c then stop x else x) = frame x.
Proof. destruct c; [apply frame_stop|reflexivity]. Qed.

Lemma frame_step n : forall o, frame (step n o) = frame n.
Proof.
  induction n as [r|e|f|l IH|ff e x IH|e x IH|ff x IH] using node_ind'; intro o; simpl.
  - exact (f_equal FL (leaf_ff_step (LTR r) o)).
  - exact (f_equal FL (leaf_ff_step (LE2S e) o)).
  - exact (f_equal FL (leaf_ff_step (LFor f) o)).
  - f_equal. rewrite map_map. apply map_ext_Forall. eapply Forall_impl; [|exact IH].
    intros ec H. simpl. destruct (is_bad_call o && _); simpl; rewrite ?frame_stop, H; reflexivity.
  - destruct o; simpl; try reflexivity; rewrite ?frame_if, IH; reflexivity.
  - rewrite frame_if, IH. reflexivity.
  - rewrite IH. reflexivity.
Qed.

Lemma frame_stop_at p : forall n, frame (stop_at p n) = frame n.
Proof.
  induction p as [|j q IHq]; intro n; [apply frame_stop|].
  destruct n as [r|e|f|l|ff e x|e x|ff x]; simpl; try reflexivity;
    try (destruct j; simpl; rewrite ?IHq; reflexivity).
  f_equal. revert j. induction l as [|ec r IHl]; intro j; [reflexivity|].
  destruct j; simpl; [rewrite IHq; reflexivity|]. rewrite IHl. reflexivity.
Qed.

Lemma frame_do_op n o : frame (do_op n o) = frame n.
Proof. destruct o; simpl; try apply frame_step. apply frame_stop_at. Qed.

Section fr_ind'.
  Variable P : fr -> Prop.
  Hypothesis HL : forall ff, P (FL ff).
  Hypothesis HM : forall l, Forall (fun ec => P (snd ec)) l -> P (FM l).
  Hypothesis HT : forall ff e x, P x -> P (FT ff e x).
  Hypothesis HO : forall e x, P x -> P (FO e x).
  Hypothesis HD : forall ff x, P x -> P (FD ff x).
  Fixpoint fr_ind' (f : fr) : P f :=
    let fix go (l : list (bool * fr)) : Forall (fun ec => P (snd ec)) l :=
      match l with [] => Forall_nil _ | ec :: r => Forall_cons ec (fr_ind' (snd ec)) (go r) end in
    match f with
    | FL ff => HL ff | FM l => HM l (go l) | FT ff e x => HT ff e x (fr_ind' x)
    | FO e x => HO e x (fr_ind' x) | FD ff x => HD ff x (fr_ind' x)
    end.
End fr_ind'.

(* per underlying result: (it sits below a ThreadsafeForwardingResult, the stack stops it at a bad outcome) *)
Fixpoint finfo (cov u : bool) (f : fr) : list (bool * bool) :=
  match f with
  | FL ff => [(u, cov || ff)]
  | FM l => flat_map (fun ec => finfo (cov || fe2o_get ec) u (snd ec)) l
  | FT _ e x => finfo (cov || fe2o_get (e, x)) true x
  | FO e x => finfo (cov || fe2o_get (e, x)) u x
  | FD _ x => finfo cov u x
  end.

Lemma will_stop_finfo n : forall cov u, will_stop cov n = map snd (finfo cov u (frame n)).
Proof.
  induction n as [r|e|f|l IH|ff e x IH|e x IH|ff x IH] using node_ind'; intros cov u; simpl; try reflexivity;
    try apply IH; try (rewrite (e2o_get_frame (e, x)); apply IH).
  induction IH as [|ec r H _ IHr]; simpl; [reflexivity|]. rewrite map_app, <- IHr. f_equal.
  rewrite (e2o_get_frame ec). apply H.
Qed.

Lemma finfo_length n : forall cov u, length (finfo cov u (frame n)) = length (lvs n).
Proof.
  induction n as [r|e|f|l IH|ff e x IH|e x IH|ff x IH] using node_ind'; intros cov u; simpl; try reflexivity;
    try apply IH.
  induction IH as [|ec r H _ IHr]; simpl; [reflexivity|]. rewrite !app_length, H, IHr. reflexivity.
Qed.

Lemma finfo_under f : forall cov u, finfo cov true f = map (fun uw => (true, snd uw)) (finfo cov u f).
Proof.
  induction f as [ff|l IH|ff e x IH|e x IH|ff x IH] using fr_ind'; intros cov u; simpl; try reflexivity;
    try apply IH.
  rewrite map_flat_map. apply flat_map_ext_Forall. eapply Forall_impl; [|exact IH]. intros ec H. apply H.
Qed.

Lemma finfo_cover f : forall cov u, finfo true u f = map (fun uw => (fst uw, true)) (finfo cov u f).
Proof.
  induction f as [ff|l IH|ff e x IH|e x IH|ff x IH] using fr_ind'; intros cov u; simpl; try reflexivity;
    try apply IH.
  rewrite map_flat_map. apply flat_map_ext_Forall. eapply Forall_impl; [|exact IH]. intros ec H. apply H.
Qed.

Definition map2 {A B C} (f : A -> B -> C) (a : list A) (b : list B) : list C :=
  map (fun p => f (fst p) (snd p)) (combine a b).

Lemma map2_app {A B C} (f : A -> B -> C) a1 a2 b1 b2 : length a1 = length b1 ->
  map2 f (a1 ++ a2) (b1 ++ b2) = map2 f a1 b1 ++ map2 f a2 b2.
Proof.
  unfold map2. revert b1. induction a1 as [|x a1 IH]; intros [|y b1] H; simpl in *; try discriminate;
    [reflexivity|]. rewrite IH; [reflexivity|]. injection H as H; exact H.
Qed.

Lemma map2_ext {A B C} (f g : A -> B -> C) a b : (forall x y, f x y = g x y) -> map2 f a b = map2 g a b.
Proof. intro H. unfold map2. apply map_ext. intros [x y]. apply H. Qed.

Lemma map2_map_l {A A' B C} (f : A' -> B -> C) (g : A -> A') a b :
  map2 f (map g a) b = map2 (fun x y => f (g x) y) a b.
Proof.
  unfold map2. revert b. induction a as [|x a IH]; intros [|y b]; simpl; try reflexivity. rewrite IH. reflexivity.
Qed.

Lemma map2_const {A B C} (g : B -> C) (a : list A) (b : list B) : length a = length b ->
  map2 (fun _ y => g y) a b = map g b.
Proof.
  unfold map2. revert b. induction a as [|x a IH]; intros [|y b] H; simpl in *; try discriminate; [reflexivity|].
  rewrite IH; [reflexivity|]. injection H as H; exact H.
Qed.

Lemma map2_snd {A B} (a : list A) (b : list B) : length a = length b -> map2 (fun _ y => y) a b = b.
Proof. intro H. rewrite (map2_const (fun y => y)), map_id by exact H. reflexivity. Qed.

Lemma map2_fuse {A B} (f g : A -> B -> B) (s : list A) (l : list B) :
  map2 f s (map2 g s l) = map2 (fun x y => f x (g x y)) s l.
Proof.
  unfold map2. revert l. induction s as [|x s IH]; intros [|y l]; simpl; try reflexivity. rewrite IH. reflexivity.
Qed.

Lemma map_map2 {A B C D} (g : C -> D) (f : A -> B -> C) a b : map g (map2 f a b) = map2 (fun x y => g (f x y)) a b.
Proof. unfold map2. rewrite map_map. reflexivity. Qed.

(* what reaches a result below a ThreadsafeForwardingResult *)
Definition tfr_conv (o : op) : option op :=
  match o with
  | Outcome k d t => Some (Block k d t)
  | StartTest _ | StopTest _ => None
  | _ => Some o
  end.
Definition leaf_deliver (u : bool) (l : leaf) (o : op) : leaf :=
  match (if u then tfr_conv o else Some o) with Some m => leaf_step l m | None => l end.
Definition leaf_evolve (o : op) (uw : bool * bool) (l : leaf) : leaf :=
  let l' := leaf_deliver (fst uw) l o in
  if is_bad_call o && snd uw then leaf_stop l' else l'.

Lemma evolve_under o u w l :
  leaf_evolve o (true, w) l = match tfr_conv o with Some m => leaf_evolve m (u, w) l | None => l end.
Proof. destruct o, u; reflexivity. Qed.

Lemma bad_under o : is_bad_call o = match tfr_conv o with Some m => is_bad_call m | None => false end.
Proof. destruct o; reflexivity. Qed.

Definition stops_if (b : bool) (l : list leaf) : list leaf := if b then map leaf_stop l else l.

Lemma stops_if_twice a b l : stops_if a (stops_if b l) = stops_if (a || b) l.
Proof.
  unfold stops_if. destruct a, b; simpl; try reflexivity. rewrite map_map.
  apply map_ext. intros [r|e|f]; reflexivity.
Qed.

Lemma stops_if_app b l m : stops_if b (l ++ m) = stops_if b l ++ stops_if b m.
Proof. unfold stops_if. destruct b; [apply map_app|reflexivity]. Qed.

Lemma lvs_if (c : bool) x : lvs (if c then stop x else x) = stops_if c (lvs x).
Proof. destruct c; [apply lvs_stop|reflexivity]. Qed.

(* cov: a decorator above already stops everything at a bad outcome; generalising over it is what carries the
   induction through an ExtendedToOriginalDecorator *)
Definition step_law (x : node) (o : op) : Prop :=
  forall cov, map2 (leaf_evolve o) (finfo cov false (frame x)) (lvs x)
              = stops_if (is_bad_call o && cov) (lvs (step x o)).

Lemma leaf_step_law l o cov :
  [leaf_evolve o (false, cov || leaf_ff l) l] = stops_if (is_bad_call o && cov) [leaf_step l o].
Proof.
  unfold leaf_evolve, leaf_deliver, stops_if; simpl.
  destruct (is_bad_call o) eqn:Eb; simpl; [|reflexivity].
  destruct cov; simpl; [reflexivity|]. destruct (leaf_ff l) eqn:Ef; [|reflexivity].
  rewrite leaf_self_stop; auto.
Qed.

(* an ExtendedToOriginalDecorator (explicit or implied) around x *)
Lemma cover_step x o e cov : step_law x o ->
  let x' := step x o in
  let y := if is_bad_call o && (if has_ff x' then get_ff x' else e) then stop x' else x' in
  map2 (leaf_evolve o) (finfo (cov || fe2o_get (e, frame x)) false (frame x)) (lvs x)
  = stops_if (is_bad_call o && cov) (lvs y).
Proof.
  intros IH x' y. unfold y. rewrite IH, lvs_if, stops_if_twice. fold x'. f_equal.
  change (if has_ff x' then get_ff x' else e) with (e2o_get (e, x')).
  rewrite e2o_get_frame. unfold x'; simpl. rewrite frame_step.
  destruct (is_bad_call o), cov, (fe2o_get (e, frame x)); reflexivity.
Qed.

Lemma lvs_step_tfr ff e x o :
  lvs (step (NTFR ff e x) o)
  = match tfr_conv o with
    | Some m => let x' := step x m in
                lvs (if is_bad_call m && (if has_ff x' then get_ff x' else e) then stop x' else x')
    | None => lvs x
    end.
Proof. destruct o; reflexivity. Qed.

Lemma step_ok n : forall o, step_law n o.
Proof.
  induction n as [r|e|f|l IH|ff e x IH|e x IH|ff x IH] using node_ind'; intros o cov.
  - exact (leaf_step_law (LTR r) o cov).
  - exact (leaf_step_law (LE2S e) o cov).
  - exact (leaf_step_law (LFor f) o cov).
  - simpl. induction IH as [|[e c] r H _ IHr]; [destruct (is_bad_call o && cov); reflexivity|].
    simpl. rewrite map2_app by apply finfo_length. rewrite stops_if_app, IHr. f_equal.
    pose proof (cover_step c o e cov (H o)) as C. simpl in C.
    destruct (is_bad_call o && (if has_ff (step c o) then get_ff (step c o) else e)); exact C.
  - unfold step_law. rewrite lvs_step_tfr, (bad_under o). cbn [frame finfo lvs].
    rewrite (finfo_under _ _ false), map2_map_l.
    rewrite (map2_ext _ (fun uw l => match tfr_conv o with Some m => leaf_evolve m uw l | None => l end))
      by (intros [u w] l; apply evolve_under).
    destruct (tfr_conv o) as [m|].
    + apply (cover_step x m e cov (IH m)).
    + apply map2_snd, finfo_length.
  - simpl. apply (cover_step x o e cov (IH o)).
  - simpl. apply IH.
Qed.

Fixpoint fpaths (f : fr) : list (list nat) :=
  match f with
  | FL _ => [[]]
  | FM l => (fix go (j : nat) (l : list (bool * fr)) : list (list nat) :=
               match l with [] => [] | ec :: r => map (cons j) (fpaths (snd ec)) ++ go (S j) r end) 0 l
  | FT _ _ x | FO _ x | FD _ x => map (cons 0) (fpaths x)
  end.
(* the inner fix of fpaths, as a function (fpaths_FM) *)
Fixpoint gpaths (k : nat) (l : list (bool * fr)) : list (list nat) :=
  match l with [] => [] | ec :: r => map (cons k) (fpaths (snd ec)) ++ gpaths (S k) r end.
Lemma fpaths_FM l : fpaths (FM l) = gpaths 0 l.
Proof. simpl. generalize 0. induction l as [|ec r IH]; intro k; simpl; [reflexivity|]. rewrite IH. reflexivity. Qed.

(* the inner fix of stop_at, as a function (stop_at_Multi) *)
Fixpoint gstop (q : list nat) (l : list (bool * node)) (j : nat) : list (bool * node) :=
  match l, j with
  | [], _ => []
  | ec :: r, 0 => (fst ec, stop_at q (snd ec)) :: r
  | ec :: r, S j' => ec :: gstop q r j'
  end.
Lemma stop_at_Multi j q l : stop_at (j :: q) (NMulti l) = NMulti (gstop q l j).
Proof.
  simpl. f_equal. revert j.
  induction l as [|ec r IH]; intros [|j]; simpl; try reflexivity. rewrite IH. reflexivity.
Qed.

Lemma fpaths_length n : length (fpaths (frame n)) = length (lvs n).
Proof.
  induction n as [r|e|f|l IH|ff e x IH|e x IH|ff x IH] using node_ind'; try reflexivity;
    try (simpl; rewrite map_length; exact IH).
  cbn [frame]. rewrite fpaths_FM. simpl. generalize 0.
  induction IH as [|ec r H _ IHr]; intro k; simpl; [reflexivity|].
  rewrite !app_length, map_length, H, IHr. reflexivity.
Qed.

Lemma gpaths_length k l : length (gpaths k (map (fun ec => (fst ec, frame (snd ec))) l))
                          = length (flat_map (fun ec => lvs (snd ec)) l).
Proof.
  revert k. induction l as [|ec r IH]; intro k; simpl; [reflexivity|].
  rewrite !app_length, map_length, fpaths_length, IH. reflexivity.
Qed.

(* what stop() called on the node at path p does to the underlying result at path pa *)
Definition mark (p : list nat) (pa : list nat) (l : leaf) : leaf := if is_prefix p pa then leaf_stop l else l.

Lemma mark_cons j q k ps ls :
  map2 (mark (j :: q)) (map (cons k) ps) ls = map2 (fun pa l => if j =? k then mark q pa l else l) ps ls.
Proof. rewrite map2_map_l. apply map2_ext. intros pa l. unfold mark. simpl. destruct (j =? k); reflexivity. Qed.

Section stop_at_members.
  Variable q : list nat.
  Let frames (l : list (bool * node)) := map (fun ec => (fst ec, frame (snd ec))) l.
  Let leaves (l : list (bool * node)) := flat_map (fun ec => lvs (snd ec)) l.

  (* numbering the members from k + 1 and aiming at j + 1 is numbering them from k and aiming at j *)
  Lemma mark_shift j l : forall k,
    map2 (mark (S j :: q)) (gpaths (S k) (frames l)) (leaves l)
    = map2 (mark (j :: q)) (gpaths k (frames l)) (leaves l).
  Proof.
    induction l as [|ec r IH]; intro k; [reflexivity|]. simpl.
    rewrite !map2_app, !mark_cons, IH by (rewrite map_length; apply fpaths_length). reflexivity.
  Qed.

  Lemma mark_passed l : forall k, map2 (mark (0 :: q)) (gpaths (S k) (frames l)) (leaves l) = leaves l.
  Proof.
    induction l as [|ec r IH]; intro k; [reflexivity|]. simpl.
    rewrite map2_app, mark_cons, IH by (rewrite map_length; apply fpaths_length).
    simpl. rewrite map2_snd by apply fpaths_length. reflexivity.
  Qed.

  Hypothesis IHq : forall n, lvs (stop_at q n) = map2 (mark q) (fpaths (frame n)) (lvs n).

  Lemma stop_at_if (b : bool) x :
    lvs (if b then stop_at q x else x) = map2 (fun pa l => if b then mark q pa l else l) (fpaths (frame x)) (lvs x).
  Proof. destruct b; [apply IHq|]. symmetry. apply map2_snd, fpaths_length. Qed.

  Lemma gstop_ok l : forall j, leaves (gstop q l j) = map2 (mark (j :: q)) (gpaths 0 (frames l)) (leaves l).
  Proof.
    induction l as [|ec r IH]; intro j; [destruct j; reflexivity|]. simpl.
    rewrite map2_app, mark_cons by (rewrite map_length; apply fpaths_length).
    destruct j as [|j]; simpl.
    - rewrite mark_passed. f_equal. apply (stop_at_if true).
    - rewrite mark_shift, <- IH. f_equal. apply (stop_at_if false).
  Qed.
End stop_at_members.

Lemma stop_at_ok p : forall n, lvs (stop_at p n) = map2 (mark p) (fpaths (frame n)) (lvs n).
Proof.
  induction p as [|j q IHq]; intro n.
  - simpl. rewrite lvs_stop. symmetry. apply (map2_const leaf_stop), fpaths_length.
  - (* a node with one child: the child is reached iff j = 0 *)
    assert (unary : forall x, lvs (match j with 0 => stop_at q x | S _ => x end)
                              = map2 (mark (j :: q)) (map (cons 0) (fpaths (frame x))) (lvs x)).
    { intro x. rewrite mark_cons. destruct j; [exact (stop_at_if q IHq true x)|exact (stop_at_if q IHq false x)]. }
    destruct n as [r|e|f|l|ff e x|e x|ff x]; try reflexivity.
    + rewrite stop_at_Multi. cbn [frame lvs]. rewrite fpaths_FM. apply gstop_ok, IHq.
    + simpl. destruct j; apply (unary x).
    + simpl. destruct j; apply (unary x).
    + simpl. destruct j; apply (unary x).
Qed.

Notation stat := (bool * bool * list nat)%type (only parsing).     (* below a forwarder, stopped by the stack, path *)
Definition statics (f : fr) : list stat := combine (finfo false false f) (fpaths f).
Definition leaf_do (s : stat) (l : leaf) (o : op) : leaf :=
  match o with StopAt p => mark p (snd s) l | _ => leaf_evolve o (fst s) l end.

Lemma statics_lengths n : length (finfo false false (frame n)) = length (fpaths (frame n)).
Proof. rewrite finfo_length, fpaths_length. reflexivity. Qed.

Lemma do_op_ok n o : lvs (do_op n o) = map2 (fun s l => leaf_do s l o) (statics (frame n)) (lvs n).
Proof.
  assert (S : forall o', lvs (step n o') = map2 (fun s l => leaf_evolve o' (fst s) l) (statics (frame n)) (lvs n)).
  { intro o'. pose proof (step_ok n o' false) as L. rewrite andb_false_r in L. simpl in L. rewrite <- L.
    unfold statics. rewrite <- (map2_map_l (leaf_evolve o') fst).
    rewrite map_fst_combine by apply statics_lengths. reflexivity. }
  destruct o; simpl; try apply S.
  rewrite stop_at_ok. unfold statics. rewrite <- (map2_map_l (mark p) snd), map_snd_combine by apply statics_lengths.
  reflexivity.
Qed.

Lemma trajectory h : forall n,
  lvs (fold_left do_op h n) = map2 (fun s l => fold_left (leaf_do s) h l) (statics (frame n)) (lvs n).
Proof.
  induction h as [|o r IH]; intro n; simpl.
  - symmetry. apply map2_snd. unfold statics.
    rewrite combine_length, <- statics_lengths, Nat.min_id. apply finfo_length.
  - rewrite IH, frame_do_op, do_op_ok, map2_fuse. reflexivity.
Qed.

Lemma since_run_snoc h o :
  since_run (h ++ [o]) = match o with StartRun => [] | _ => since_run h ++ [o] end.
Proof. unfold since_run. rewrite fold_left_app. simpl. destruct o; reflexivity. Qed.

Lemma scope_snoc res h o :
  scope res (h ++ [o])
  = match o with StartRun => if res then [] else scope res h ++ [o] | _ => scope res h ++ [o] end.
Proof. destruct res; simpl; [apply since_run_snoc|]. destruct o; reflexivity. Qed.

Lemma is_problem_bad o : is_problem o = is_bad_call o.
Proof. destruct o as [| | k d t | | | k d t |]; try reflexivity; destruct k; reflexivity. Qed.

Lemma leaf_do_form u w pa l o :
  leaf_do (u, w, pa) l o
  = let l' := leaf_deliver u l o in if stop_reaches pa o || (is_bad_call o && w) then leaf_stop l' else l'.
Proof.
  destruct o; try reflexivity. unfold mark, leaf_deliver; simpl. rewrite orb_false_r. destruct u, l; reflexivity.
Qed.

Lemma leaf_do_pres {B} (P : leaf -> B) :
  (forall l m, P (leaf_step l m) = P l) -> (forall l, P (leaf_stop l) = P l) ->
  forall s l o, P (leaf_do s l o) = P l.
Proof.
  intros Hs Hp [[u w] pa] l o. rewrite leaf_do_form. cbv zeta.
  destruct (stop_reaches pa o || _); rewrite ?Hp; unfold leaf_deliver;
    destruct (if u then tfr_conv o else Some o); auto.
Qed.

(* what `trajectory` reduces a whole stack to *)
Definition traj (s : stat) (l : leaf) (h : list op) : leaf := fold_left (leaf_do s) h l.

Lemma traj_snoc s l h o : traj s l (h ++ [o]) = leaf_do s (traj s l h) o.
Proof. unfold traj. rewrite fold_left_app. reflexivity. Qed.

Lemma traj_pres {B} (P : leaf -> B) :
  (forall l m, P (leaf_step l m) = P l) -> (forall l, P (leaf_stop l) = P l) ->
  forall s h l, P (traj s l h) = P l.
Proof.
  intros Hs Hp s h. induction h as [|o r IH]; intro l; [reflexivity|].
  unfold traj in *. simpl. rewrite IH. apply leaf_do_pres; assumption.
Qed.

Lemma traj_ff s l h : leaf_ff (traj s l h) = leaf_ff l.
Proof. apply traj_pres; [apply leaf_ff_step|]. intros []; reflexivity. Qed.

Lemma traj_resets s l h : leaf_resets (traj s l h) = leaf_resets l.
Proof. apply traj_pres; intros []; reflexivity. Qed.

Lemma leaf_stopped_deliver u l o :
  leaf_stopped (leaf_deliver u l o) =
  match o with
  | StartRun => if leaf_resets l then false else leaf_stopped l
  | _ => (is_bad_call o && leaf_ff l) || leaf_stopped l
  end.
Proof.
  unfold leaf_deliver. destruct u; [|apply leaf_stopped_step].
  destruct o; simpl; rewrite ?leaf_stopped_step; reflexivity.
Qed.

Lemma leaf_stopped_do u w pa l o : (leaf_ff l = true -> w = true) ->
  leaf_stopped (leaf_do (u, w, pa) l o) =
  match o with
  | StartRun => if leaf_resets l then false else leaf_stopped l
  | _ => leaf_stopped l || stop_reaches pa o || (w && is_problem o)
  end.
Proof.
  intro Hw. rewrite leaf_do_form. cbv zeta.
  assert (St : forall (c : bool) x, leaf_stopped (if c then leaf_stop x else x) = c || leaf_stopped x)
    by (intros [|] []; reflexivity).
  assert (Sh : forall st sr bd ff : bool, (ff = true -> w = true) ->
                 (sr || bd && w) || (bd && ff || st) = st || sr || w && bd)
    by (intros [|] [|] [|] [|] Hf; try rewrite (Hf eq_refl); destruct w; reflexivity).
  rewrite St, leaf_stopped_deliver, is_problem_bad. destruct o; try reflexivity; apply Sh, Hw.
Qed.

(* "since the last startTestRun" for testtools' own results, "ever" for foreign ones, which never clear shouldStop *)
Lemma stopped_after u w pa l h : leaf_stopped l = false -> (leaf_ff l = true -> w = true) ->
  leaf_stopped (traj (u, w, pa) l h)
  = existsb (stop_reaches pa) (scope (leaf_resets l) h) || (w && existsb is_problem (scope (leaf_resets l) h)).
Proof.
  intros H0 Hw.
  (* one more call in the scope *)
  assert (Sh : forall sc o,
            existsb (stop_reaches pa) sc || w && existsb is_problem sc || stop_reaches pa o || w && is_problem o
            = existsb (stop_reaches pa) (sc ++ [o]) || w && existsb is_problem (sc ++ [o])).
  { intros sc o. rewrite !existsb_snoc.
    destruct (existsb (stop_reaches pa) sc), (existsb is_problem sc), (stop_reaches pa o), (is_problem o), w; reflexivity. }
  induction h as [|o r IH] using rev_ind.
  - destruct (leaf_resets l); simpl; rewrite H0, andb_false_r; reflexivity.
  - rewrite traj_snoc, leaf_stopped_do by (rewrite traj_ff; exact Hw).
    rewrite traj_resets, IH, scope_snoc.
    destruct o as [|t|k d t|t| |k d t|p].
    1: { destruct (leaf_resets l); [rewrite andb_false_r; reflexivity|].
         rewrite !existsb_snoc. simpl. rewrite !orb_false_r. reflexivity. }
    all: apply Sh.
Qed.

(* A TestResult without shouldStop and failfast: stop() and failfast never change the other fields, so verdict and
   summaries can be followed on the core alone (leaf_core_traj). *)
Record core := { c_err : list tid; c_fail : list tid; c_uxs : list tid; c_run : nat; c_text : bool;
                 c_out : list summary }.
Definition core_of (r : tr) : core :=
  {| c_err := errors r; c_fail := failures r; c_uxs := uxs r; c_run := tests_run r; c_text := tr_text r;
     c_out := tr_out r |}.
Definition c_sections (c : core) : list (nat * tid) :=
  map (pair 0) (c_err c) ++ map (pair 1) (c_fail c) ++ map (pair 2) (c_uxs c).
Definition c_ok (c : core) : bool := match c_err c, c_fail c, c_uxs c with [], [], [] => true | _, _, _ => false end.
Definition c_summary (c : core) : summary :=
  {| s_ran := c_run c;
     s_failed := if c_ok c then None else Some (length (c_fail c) + length (c_err c) + length (c_uxs c));
     s_sections := c_sections c |}.
Definition c_add (c : core) (k : kind) (t : tid) (run : nat) : core :=
  {| c_err := match k with KError => c_err c ++ [t] | _ => c_err c end;
     c_fail := match k with KFailure => c_fail c ++ [t] | _ => c_fail c end;
     c_uxs := match k with KUxsuccess => c_uxs c ++ [t] | _ => c_uxs c end;
     c_run := run; c_text := c_text c; c_out := c_out c |}.
Definition core_step1 (c : core) (m : op) : core :=
  match m with
  | StartRun => {| c_err := []; c_fail := []; c_uxs := []; c_run := 0; c_text := c_text c; c_out := c_out c |}
  | StartTest _ => {| c_err := c_err c; c_fail := c_fail c; c_uxs := c_uxs c; c_run := S (c_run c);
                      c_text := c_text c; c_out := c_out c |}
  | Outcome k _ t => c_add c k t (c_run c)
  | Block k _ t => c_add c k t (S (c_run c))
  | StopRun => if c_text c then {| c_err := c_err c; c_fail := c_fail c; c_uxs := c_uxs c; c_run := c_run c;
                                   c_text := true; c_out := c_out c ++ [c_summary c] |} else c
  | _ => c
  end.
Definition core_step (u : bool) (c : core) (o : op) : core :=
  match (if u then tfr_conv o else Some o) with Some m => core_step1 c m | None => c end.

Lemma tr_summary_core r : tr_summary r = c_summary (core_of r).
Proof. reflexivity. Qed.

Lemma core_tr_step r m : core_of (tr_step r m) = core_step1 (core_of r) m.
Proof.
  destruct m; try reflexivity; simpl.
  - unfold tr_outcome. destruct (bad k && tr_ff r); destruct k; reflexivity.
  - unfold core_of at 2. simpl. destruct (tr_text r); reflexivity.
  - unfold tr_outcome. destruct (bad k && _); destruct k; reflexivity.
Qed.

Definition leaf_core (l : leaf) : option core := match l with LTR r => Some (core_of r) | _ => None end.

Lemma leaf_ok_core l c : leaf_core l = Some c -> leaf_ok l = c_ok c.
Proof. destruct l; simpl; intro H; inversion H. reflexivity. Qed.
Lemma leaf_out_core l : leaf_out l = match leaf_core l with Some c => c_out c | None => [] end.
Proof. destruct l; reflexivity. Qed.

Lemma leaf_core_do u w pa l o :
  leaf_core (leaf_do (u, w, pa) l o) = option_map (fun c => core_step u c o) (leaf_core l).
Proof.
  (* stopping does not touch the core; what is delivered acts on it as on the TestResult *)
  assert (St : forall (c : bool) x, leaf_core (if c then leaf_stop x else x) = leaf_core x).
  { intros [|] []; reflexivity. }
  rewrite leaf_do_form. cbv zeta. rewrite St. unfold leaf_deliver, core_step.
  destruct (if u then tfr_conv o else Some o) as [m|].
  - destruct l; simpl; [rewrite core_tr_step|..]; reflexivity.
  - destruct l; reflexivity.
Qed.

Definition cfold (u : bool) (h : list op) (c : core) : core := fold_left (core_step u) h c.
Lemma cfold_snoc u h o c : cfold u (h ++ [o]) c = core_step u (cfold u h c) o.
Proof. unfold cfold. rewrite fold_left_app. reflexivity. Qed.

Lemma leaf_core_traj u w pa h : forall l,
  leaf_core (traj (u, w, pa) l h) = option_map (cfold u h) (leaf_core l).
Proof.
  induction h as [|o r IH]; intro l; [destruct l; reflexivity|].
  unfold traj, cfold in *. simpl. rewrite IH, leaf_core_do. destruct (leaf_core l); reflexivity.
Qed.

Definition one_problem (o : op) : list (nat * tid) := match problem o with Some p => [p] | None => [] end.

Lemma problems_snoc l o : problems (l ++ [o]) = problems l ++ one_problem o.
Proof.
  unfold one_problem. induction l as [|a r IH]; simpl; [destruct (problem o); reflexivity|].
  destruct (problem a); simpl; rewrite IH; reflexivity.
Qed.

Lemma count_app {A} (e : A -> A -> bool) x a b : count e x (a ++ b) = count e x a + count e x b.
Proof. unfold count. rewrite filter_app, app_length. reflexivity. Qed.

Definition c_problems (c : core) : nat := length (c_fail c) + length (c_err c) + length (c_uxs c).

(* the problem an outcome reports goes to the end of its own list *)
Lemma sections_add c k d t run x :
  count sec_eqb x (c_sections (c_add c k t run))
  = count sec_eqb x (one_problem (Outcome k d t)) + count sec_eqb x (c_sections c).
Proof.
  (* one more in the first, second or third summand *)
  assert (N1 : forall a p r, a + p + r = p + (a + r)).
  { intros a p r. rewrite (Nat.add_comm p). apply Nat.add_shuffle0. }
  assert (N2 : forall a b p r, a + (b + p + r) = p + (a + (b + r))).
  { intros a b p r. rewrite (Nat.add_shuffle0 b), Nat.add_assoc. apply Nat.add_comm. }
  assert (N3 : forall a b r p, a + (b + (r + p)) = p + (a + (b + r))).
  { intros a b r p. rewrite (Nat.add_comm p), !Nat.add_assoc. reflexivity. }
  unfold c_sections.
  destruct k; [reflexivity| | |reflexivity|reflexivity| ]; cbn [c_add c_err c_fail c_uxs]; rewrite map_app, !count_app.
  - apply N1.
  - apply N2.
  - apply N3.
Qed.
Lemma problems_add c k d t run :
  c_problems (c_add c k t run) = length (one_problem (Outcome k d t)) + c_problems c.
Proof.
  unfold c_problems. destruct k; try reflexivity; cbn [c_add c_err c_fail c_uxs]; rewrite app_length;
    cbn [length]; rewrite Nat.add_1_r, ?Nat.add_succ_r; reflexivity.
Qed.
Lemma one_problem_form k d d' t : one_problem (Outcome k d t) = one_problem (Outcome k d' t).
Proof. destruct k; reflexivity. Qed.

Definition fresh_core (txt : bool) : core :=
  {| c_err := []; c_fail := []; c_uxs := []; c_run := 0; c_text := txt; c_out := [] |}.

(* u: below a forwarder, which counts a test at its outcome instead of its startTest; the lists only up to order *)
Record core_inv (u : bool) (h : list op) (c : core) : Prop := {
  ci_sections : forall x, count sec_eqb x (c_sections c) = count sec_eqb x (problems (since_run h));
  ci_problems : c_problems c = length (problems (since_run h));
  ci_run : c_run c = length (filter (counts_as_test u) (since_run h))
}.

Lemma core_step_adds u c o : o <> StartRun ->
  (forall x, count sec_eqb x (c_sections (core_step u c o))
             = count sec_eqb x (one_problem o) + count sec_eqb x (c_sections c))
  /\ c_problems (core_step u c o) = length (one_problem o) + c_problems c
  /\ c_run (core_step u c o) = length (filter (counts_as_test u) [o]) + c_run c.
Proof.
  intro Hn.
  (* an outcome, delivered as it is or as a whole test: c_add with the count of tests the call brings *)
  assert (added : forall k d t run,
            (forall x, count sec_eqb x (c_sections (c_add c k t run))
                       = count sec_eqb x (one_problem (Outcome k d t)) + count sec_eqb x (c_sections c))
            /\ c_problems (c_add c k t run) = length (one_problem (Outcome k d t)) + c_problems c).
  { intros k d t run. split; [intro x; apply sections_add|apply problems_add]. }
  destruct o as [|t|k d t|t| |k d t|p]; [contradiction|..]; destruct u; unfold core_step; cbn [tfr_conv core_step1].
  (* every other call changes neither the lists nor, but for startTest, the count: all three by computation *)
  all: try (repeat split; reflexivity).
  all: try (destruct (c_text c); repeat split; reflexivity).
  all: split; [exact (proj1 (added k d t _))|split; [exact (proj2 (added k d t _))|reflexivity]].
Qed.

Lemma core_inv_step u h c o : core_inv u h c -> core_inv u (h ++ [o]) (core_step u c o).
Proof.
  intros [I1 I2 I3].
  assert (E : o = StartRun \/ o <> StartRun /\ since_run (h ++ [o]) = since_run h ++ [o])
    by (rewrite since_run_snoc; destruct o; auto; right; split; auto; discriminate).
  destruct E as [-> | [Hn Es]].
  - destruct u; constructor; rewrite since_run_snoc; reflexivity.
  - destruct (core_step_adds u c o Hn) as [A1 [A2 A3]]. constructor; rewrite Es.
    + intro x. rewrite problems_snoc, count_app, A1, I1. apply Nat.add_comm.
    + rewrite problems_snoc, app_length, A2, I2. apply Nat.add_comm.
    + rewrite filter_app, app_length, A3, I3. apply Nat.add_comm.
Qed.

Lemma core_inv_holds u txt h : core_inv u h (cfold u h (fresh_core txt)).
Proof.
  induction h as [|o r IH] using rev_ind; [constructor; reflexivity|].
  rewrite cfold_snoc. apply core_inv_step, IH.
Qed.

Lemma c_out_step u c o :
  c_out (core_step u c o) = match o with
                            | StopRun => if c_text c then c_out c ++ [c_summary c] else c_out c
                            | _ => c_out c
                            end.
Proof. unfold core_step. destruct o, u; simpl; try reflexivity; destruct (c_text c); reflexivity. Qed.

Lemma c_text_cfold u h c : c_text (cfold u h c) = c_text c.
Proof.
  induction h as [|o r IH] using rev_ind; [reflexivity|]. rewrite cfold_snoc, <- IH.
  unfold core_step. destruct (if u then tfr_conv o else Some o) as [m|]; [|reflexivity].
  destruct m; simpl; try reflexivity. destruct (c_text (cfold u r c)) eqn:E; simpl; congruence.
Qed.

(* one summary per stopTestRun, of the core as it stands just before; pre accumulates as in before_stop_runs *)
Lemma c_out_after u c0 h : forall pre,
  c_out (cfold u (pre ++ h) c0)
  = c_out (cfold u pre c0)
    ++ (if c_text c0 then map (fun p => c_summary (cfold u p c0)) (before_stop_runs pre h) else []).
Proof.
  induction h as [|o r IH]; intro pre.
  - rewrite app_nil_r. simpl. destruct (c_text c0); rewrite app_nil_r; reflexivity.
  - replace (pre ++ o :: r) with ((pre ++ [o]) ++ r) by (rewrite <- app_assoc; reflexivity).
    rewrite IH, cfold_snoc, c_out_step, c_text_cfold.
    destruct o; simpl; try reflexivity.
    destruct (c_text c0); [rewrite <- app_assoc; reflexivity|reflexivity].
Qed.

Lemma problems_nil l : match problems l with [] => true | _ => false end = negb (existsb is_problem l).
Proof.
  induction l as [|o r IH]; [reflexivity|]. simpl. unfold is_problem at 1.
  destruct (problem o); simpl; [reflexivity|exact IH].
Qed.

Lemma c_ok_problems u h c : core_inv u h c -> c_ok c = want_ok h.
Proof.
  intros [_ I2 _]. unfold want_ok. rewrite <- problems_nil. unfold c_ok, c_problems in *.
  destruct (problems (since_run h)), (c_fail c), (c_err c), (c_uxs c); try reflexivity; discriminate.
Qed.

Lemma summary_ok u h c : core_inv u h c -> summary_okb u h (c_summary c) = true.
Proof.
  intro I. pose proof (c_ok_problems u h c I) as Hok. destruct I as [I1 I2 I3].
  unfold summary_okb, c_summary. cbn [s_ran s_failed s_sections].
  rewrite I3, Nat.eqb_refl. simpl. apply andb_true_iff. split.
  - rewrite Hok. unfold want_ok. rewrite <- problems_nil. fold (c_problems c). rewrite I2.
    destruct (problems (since_run h)); simpl; [reflexivity|]. apply Nat.eqb_refl.
  - unfold same_sections. apply forallb_forall. intros x _. rewrite I1. apply Nat.eqb_refl.
Qed.

Section adapter_ind'.
  Variable P : adapter -> Prop.
  Hypothesis HR : forall ff txt, P (ATR ff txt).
  Hypothesis HS : P AE2S.
  Hypothesis HX : forall c, P (AFor c).
  Hypothesis HM : forall l, Forall P l -> P (AMulti l).
  Hypothesis HF : forall a, P a -> P (ATFR a).
  Hypothesis HO : forall a, P a -> P (AE2O a).
  Hypothesis HD : forall t a, P a -> P (ADeco t a).
  Fixpoint adapter_ind' (a : adapter) : P a :=
    let fix go (l : list adapter) : Forall P l :=
      match l with [] => Forall_nil _ | x :: r => Forall_cons x (adapter_ind' x) (go r) end in
    match a with
    | ATR ff txt => HR ff txt | AE2S => HS | AFor c => HX c | AMulti l => HM l (go l)
    | ATFR x => HF x (adapter_ind' x) | AE2O x => HO x (adapter_ind' x) | ADeco t x => HD t x (adapter_ind' x)
    end.
End adapter_ind'.

Definition fresh_for (li : leaf_info) (l : leaf) : Prop :=
  match l with
  | LTR r => li_e2s li = false /\ core_of r = fresh_core (li_text li) /\ tr_stopped r = false
              /\ li_foreign li = false
  | LE2S e => li_e2s li = true /\ li_text li = false /\ e_stopped e = false /\ li_foreign li = false
  | LFor f => li_e2s li = false /\ li_text li = false /\ fo_stopped f = false /\ li_foreign li = true
  end.

(* Assigning failfast changes nothing else, so the underlying results are described with failfast erased. *)
Definition leaf_noff (l : leaf) : leaf :=
  match l with
  | LTR r => LTR (tr_setff false r) | LE2S e => LE2S (e2s_setff false e) | LFor f => LFor (fo_setff false f)
  end.

Lemma fresh_noff li l : fresh_for li (leaf_noff l) -> fresh_for li l.
Proof. destruct l; intro H; exact H. Qed.

(* per underlying result: path, below a forwarder, its state without failfast *)
Notation dsc := (list nat * bool * leaf)%type (only parsing).
Definition dsc_down (j : nat) (d : dsc) : dsc := (j :: fst (fst d), snd (fst d), snd d).
Fixpoint descr (u : bool) (n : node) : list dsc :=
  match n with
  | NTR r => [([], u, leaf_noff (LTR r))]
  | NE2S e => [([], u, leaf_noff (LE2S e))]
  | NFor f => [([], u, leaf_noff (LFor f))]
  | NMulti l => (fix go (j : nat) (l : list (bool * node)) : list dsc :=
                   match l with [] => [] | ec :: r => map (dsc_down j) (descr u (snd ec)) ++ go (S j) r end) 0 l
  | NTFR _ _ x => map (dsc_down 0) (descr true x)
  | NE2O _ x | NDeco _ x => map (dsc_down 0) (descr u x)
  end.
Fixpoint gdescr (u : bool) (k : nat) (l : list (bool * node)) : list dsc :=
  match l with [] => [] | ec :: r => map (dsc_down k) (descr u (snd ec)) ++ gdescr u (S k) r end.
Lemma descr_Multi u l : descr u (NMulti l) = gdescr u 0 l.
Proof. simpl. generalize 0. induction l as [|ec r IH]; intro k; simpl; [reflexivity|]. rewrite IH. reflexivity. Qed.

Lemma descr_lvs n : forall u, map snd (descr u n) = map leaf_noff (lvs n).
Proof.
  induction n as [r|e|f|l IH|ff e x IH|e x IH|ff x IH] using node_ind'; intro u; try reflexivity;
    try (simpl; rewrite map_map; simpl; apply IH).
  rewrite descr_Multi. simpl. generalize 0.
  induction IH as [|ec r H _ IHr]; intro k; simpl; [reflexivity|].
  rewrite !map_app, map_map, IHr. simpl. rewrite H. reflexivity.
Qed.

Lemma descr_paths n : forall u, map (fun d => fst (fst d)) (descr u n) = fpaths (frame n).
Proof.
  induction n as [r|e|f|l IH|ff e x IH|e x IH|ff x IH] using node_ind'; intro u; try reflexivity;
    try (simpl; rewrite map_map; simpl;
         rewrite <- (map_map (fun d : list nat * bool * leaf => fst (fst d)) (cons 0)), IH; reflexivity).
  rewrite descr_Multi. cbn [frame]. rewrite fpaths_FM. generalize 0.
  induction IH as [|ec r H _ IHr]; intro k; simpl; [reflexivity|].
  rewrite map_app, map_map, IHr. simpl. rewrite <- (H u), map_map. reflexivity.
Qed.

Lemma descr_unders n : forall cov u, map (fun d => snd (fst d)) (descr u n) = map fst (finfo cov u (frame n)).
Proof.
  induction n as [r|e|f|l IH|ff e x IH|e x IH|ff x IH] using node_ind'; intros cov u; try reflexivity;
    try (simpl; rewrite map_map; simpl; apply IH).
  rewrite descr_Multi. simpl. generalize 0.
  induction IH as [|ec r H _ IHr]; intro k; simpl; [reflexivity|].
  rewrite !map_app, map_map, IHr. simpl. f_equal. apply H.
Qed.

Lemma descr_set_ff b n : forall u, descr u (set_ff b n) = descr u n.
Proof.
  induction n as [r|e|f|l IH|ff e x IH|e x IH|ff x IH] using node_ind'; intro u; try reflexivity.
  - cbn [set_ff]. rewrite !descr_Multi. generalize 0.
    induction IH as [|ec r H _ IHr]; intro k; simpl; [reflexivity|].
    rewrite IHr. destruct (has_ff (snd ec)); simpl; rewrite ?H; reflexivity.
  - simpl. destruct (has_ff x); simpl; rewrite ?IH; reflexivity.
Qed.

Lemma ff_implies_will n : forall cov u,
  Forall2 (fun uw l => leaf_ff l = true -> snd uw = true) (finfo cov u (frame n)) (lvs n).
Proof.
  induction n as [r|e|f|l IH|ff e x IH|e x IH|ff x IH] using node_ind'; intros cov u; simpl; try apply IH.
  1-3: constructor; [|constructor]; simpl; intros ->; apply orb_true_r.
  induction IH as [|ec r H _ IHr]; simpl; [constructor|]. apply Forall2_app; [apply H|exact IHr].
Qed.

Definition describes (u : bool) (li : leaf_info) (d : list nat * bool * leaf) : Prop :=
  fst (fst d) = li_path li /\ snd (fst d) = u || li_tfr li /\ fresh_for li (snd d).

Fixpoint ginfos (k : nat) (l : list adapter) : list leaf_info :=
  match l with [] => [] | x :: r => map (li_down k) (leaf_infos x) ++ ginfos (S k) r end.
Lemma leaf_infos_Multi l : leaf_infos (AMulti l) = ginfos 0 l.
Proof. simpl. generalize 0. induction l as [|x r IH]; intro k; simpl; [reflexivity|]. rewrite IH. reflexivity. Qed.

Lemma describes_down u j l d : Forall2 (describes u) l d ->
  Forall2 (describes u) (map (li_down j) l) (map (dsc_down j) d).
Proof.
  intro H. apply Forall2_map_l, Forall2_map_r. eapply Forall2_impl; [|exact H]. intros li x [M1 [M2 M3]].
  unfold describes, dsc_down; simpl. rewrite M1. repeat split; assumption.
Qed.

Lemma build_descr a : forall u, Forall2 (describes u) (leaf_infos a) (descr u (build a)).
Proof.
  induction a as [ff txt| |c|l IH|x IH|x IH|t x IH] using adapter_ind'; intro u.
  1-3: simpl; constructor; [|constructor]; unfold describes; simpl; rewrite orb_false_r; repeat split.
  - rewrite leaf_infos_Multi. cbn [build]. rewrite descr_Multi. generalize 0.
    induction IH as [|x r H _ IHr]; intro k; simpl; [constructor|].
    apply Forall2_app; [|apply IHr]. apply describes_down.
    unfold e2o_set; simpl. destruct (has_ff (build x)); simpl; rewrite ?descr_set_ff; apply H.
  - simpl. rewrite <- (map_map li_under_tfr (li_down 0)). apply describes_down, Forall2_map_l.
    eapply Forall2_impl; [|apply (IH true)]. intros li d [M1 [M2 M3]].
    unfold describes; simpl. rewrite orb_true_r. repeat split; assumption.
  - simpl. apply describes_down, IH.
  - simpl. apply describes_down, IH.
Qed.

Lemma init_descr a s : Forall2 (describes false) (leaf_infos a) (descr false (init a s)).
Proof. destruct s as [b|]; simpl; rewrite ?descr_set_ff; apply build_descr. Qed.

Lemma init_length a s : length (lvs (init a s)) = length (leaf_infos a).
Proof.
  rewrite <- (map_length leaf_noff), <- (descr_lvs _ false), map_length. symmetry.
  eapply Forall2_length, init_descr.
Qed.

Lemma F2_Forall_r {A B} (P : B -> Prop) (Q : A -> B -> Prop) a b :
  Forall2 Q a b -> (forall x y, Q x y -> P y) -> Forall P b.
Proof. intros H K. induction H; constructor; eauto. Qed.

Definition good (i : input) (li : leaf_info) (sl : (bool * bool * list nat) * leaf) : Prop :=
  fst (fst (fst sl)) = li_tfr li /\ snd (fst (fst sl)) = intended_ff i li /\ snd (fst sl) = li_path li
  /\ fresh_for li (snd sl) /\ (leaf_ff (snd sl) = true -> snd (fst (fst sl)) = true).

(* descr is one list, the statements zip three (finfo, fpaths, lvs): given that these are its projections and that
   the stack's decisions are the intended ones (no F18), the lists are walked in step *)
Lemma good_zip i infos ds : Forall2 (describes false) infos ds ->
  forall fi fp ls,
  map (fun d => fst (fst d)) ds = fp -> map (fun d => snd (fst d)) ds = map fst fi ->
  map snd ds = map leaf_noff ls -> map snd fi = map (intended_ff i) infos ->
  Forall2 (fun (uw : bool * bool) l => leaf_ff l = true -> snd uw = true) fi ls ->
  Forall2 (good i) infos (combine (combine fi fp) ls).
Proof.
  induction 1 as [|li d infos ds [M1 [M2 M3]] _ IH]; intros fi fp ls Ep Eu El Ew Hw.
  - destruct fi, ls; try discriminate. subst fp. constructor.
  - destruct fi as [|[u w] fi], ls as [|l ls]; try discriminate. subst fp.
    injection Eu as Eu Eu'. injection El as El El'. injection Ew as Ew Ew'.
    apply Forall2_cons_inv in Hw as [Hw1 Hw2]. subst u w. simpl.
    constructor; [|apply IH; auto].
    unfold good; simpl. rewrite M1. repeat split; auto.
    apply fresh_noff. rewrite <- El. exact M3.
Qed.

Lemma setup i : finding_F18 i = false ->
  let n0 := init (stack i) (set_after i) in
  Forall2 (good i) (leaf_infos (stack i)) (combine (statics (frame n0)) (lvs n0)).
Proof.
  intros Hf n0. apply (good_zip i _ _ (init_descr (stack i) (set_after i))).
  - apply descr_paths.
  - apply descr_unders.
  - apply descr_lvs.
  - unfold finding_F18 in Hf. apply negb_false_iff, (list_eqb_spec Bool.eqb bool_eqb_spec) in Hf.
    rewrite <- Hf. symmetry. apply will_stop_finfo.
  - apply ff_implies_will.
Qed.

Lemma states_scan h : forall n, states n h = map (fun pre => fold_left do_op pre n) (prefixes h).
Proof.
  intro n. unfold prefixes. rewrite map_map, (scan_prefixes do_op (fun n => n)). revert n.
  induction h as [|o r IH]; intro n; simpl; [reflexivity|]. rewrite IH. reflexivity.
Qed.

Lemma lbool_eqb_spec a b : lbool_eqb a b = true <-> a = b.
Proof. apply list_eqb_spec, bool_eqb_spec. Qed.

(* a TestResult holds the fold of the calls over a fresh core; anything else writes no summaries *)
Definition after_ok (i : input) (pre : list op) (li : leaf_info) (l : leaf) : Prop :=
  leaf_stopped l = want_leaf_stop i pre li /\
  match leaf_core l with
  | Some c => li_e2s li = false /\ li_foreign li = false /\ c = cfold (li_tfr li) pre (fresh_core (li_text li))
  | None => li_text li = false /\ (li_e2s li = true \/ li_foreign li = true)
  end.

Lemma leaf_after i pre : finding_F18 i = false ->
  Forall2 (after_ok i pre) (leaf_infos (stack i)) (lvs (fold_left do_op pre (init (stack i) (set_after i)))).
Proof.
  intro Hf. rewrite trajectory. apply Forall2_map_r. eapply Forall2_impl; [|apply (setup i Hf)].
  intros li [[[u w] pa] l]. unfold good; simpl. intros [-> [-> [-> [Fr Hw]]]].
  fold (traj (li_tfr li, intended_ff i li, li_path li) l pre). split.
  - rewrite stopped_after; [|destruct l; apply Fr|exact Hw].
    replace (leaf_resets l) with (negb (li_foreign li)); [reflexivity|].
    destruct l; simpl in *; destruct Fr as [_ [_ [_ ->]]]; reflexivity.
  - rewrite leaf_core_traj. destruct l; simpl in *.
    + destruct Fr as [-> [-> [_ ->]]]. auto.
    + destruct Fr as [-> [-> _]]. auto.
    + destruct Fr as [_ [-> [_ ->]]]. auto.
Qed.

Lemma leaf_stops_after i pre : finding_F18 i = false ->
  leaf_stops (fold_left do_op pre (init (stack i) (set_after i)))
  = map (want_leaf_stop i pre) (leaf_infos (stack i)).
Proof.
  intro Hf. rewrite leaf_stops_lvs. symmetry. apply Forall2_map_eq.
  eapply Forall2_impl; [|apply (leaf_after i pre Hf)]. intros li l [H _]. symmetry. exact H.
Qed.

Lemma wf_has_leaf a : wf_stack a = true -> leaf_infos a <> [].
Proof.
  induction a as [ff txt| |c|l IH|x IH|x IH|t x IH] using adapter_ind'; simpl; intro H; try discriminate;
    try (intro E; apply map_eq_nil in E; revert E; apply IH; exact H).
  destruct l as [|x r]; [discriminate|]. simpl in H. apply andb_true_iff in H as [H1 _].
  inversion IH; subst. intro E. apply app_eq_nil in E as [E _]. apply map_eq_nil in E. revert E. apply H2. exact H1.
Qed.

Lemma not_exists_all {A} (p : A -> bool) l : existsb p l = false -> Forall (fun x => p x = false) l.
Proof. intro H. apply Forall_forall, existsb_false, H. Qed.

Lemma was_ok_after i pre :
  wf_stack (stack i) = true -> finding_F18 i = false -> has_e2s i = false -> has_foreign i = false ->
  was_ok (fold_left do_op pre (init (stack i) (set_after i))) = want_ok pre.
Proof.
  intros Hwf Hf He Hx. rewrite was_ok_lvs. pose proof (leaf_after i pre Hf) as S.
  apply forallb_const.
  - intro E. apply (wf_has_leaf _ Hwf). rewrite E in S. inversion S. reflexivity.
  - apply not_exists_all in He, Hx.
    induction S as [|li l I L [_ Hc] _ IH]; [constructor|].
    inversion He; inversion Hx; subst. constructor; [|apply IH; assumption].
    destruct (leaf_core l) as [c|] eqn:Ec; [|destruct Hc as [_ [E|E]]; congruence].
    destruct Hc as [_ [_ ->]]. rewrite (leaf_ok_core _ _ Ec). eapply c_ok_problems, core_inv_holds.
Qed.

Lemma sums_after i : finding_F18 i = false ->
  let n0 := init (stack i) (set_after i) in
  Forall2 (fun li sums => (if li_text li
                           then forall2b (summary_okb (li_tfr li)) (before_stop_runs [] (hist i)) sums
                           else match sums with [] => true | _ => false end) = true)
          (leaf_infos (stack i)) (leaf_outs (fold_left do_op (hist i) n0)).
Proof.
  intros Hf n0. rewrite leaf_outs_lvs. apply Forall2_map_r.
  eapply Forall2_impl; [|apply (leaf_after i (hist i) Hf)]. intros li l [_ Hc]. rewrite leaf_out_core.
  destruct (leaf_core l) as [c|]; [destruct Hc as [_ [_ ->]]|destruct Hc as [-> _]; reflexivity].
  pose proof (c_out_after (li_tfr li) (fresh_core (li_text li)) (hist i) []) as O. simpl in O. rewrite O.
  destruct (li_text li); [|reflexivity].
  rewrite <- (map_id (before_stop_runs _ _)) at 1. rewrite forall2b_maps.
  apply forallb_forall. intros p _. apply summary_ok, core_inv_holds.
Qed.

Theorem model_seq_meets_spec : forall i ord, wf_stack (stack i) = true -> finding_F18 i = false ->
  spec_seq i (model_seq i ord) = true.
Proof.
  intros i ord Hwf Hf. unfold spec_seq, model_seq. set (n0 := init (stack i) (set_after i)).
  rewrite states_scan. apply andb_true_iff; split; [apply andb_true_iff; split|].
  - unfold verdict_okb. cbn [o_ok]. destruct (has_e2s i) eqn:He; [reflexivity|].
    destruct (has_foreign i) eqn:Hx; [reflexivity|]. simpl. apply lbool_eqb_spec.
    rewrite map_map. apply map_ext. intro pre. apply was_ok_after; assumption.
  - unfold stop_okb. cbn [o_leaf_stop o_stop]. rewrite !map_map. apply andb_true_iff; split.
    + rewrite <- (map_id (prefixes _)) at 1. rewrite forall2b_maps. apply forallb_forall. intros pre _.
      apply lbool_eqb_spec, leaf_stops_after, Hf.
    + rewrite forall2b_maps. apply forallb_forall. intros pre _.
      apply bool_eqb_spec, should_stop_any.
  - unfold sums_okb. cbn [o_sums]. apply forall2b_complete, (sums_after i Hf).
Qed.

Lemma summary_okb_sound tfr h s : summary_okb tfr h s = true -> Summary_ok tfr h s.
Proof.
  unfold summary_okb, Summary_ok. intro H. apply andb_true_iff in H as [H H3]. apply andb_true_iff in H as [H1 H2].
  apply Nat.eqb_eq in H1. apply onat_eqb_spec in H2. split; [exact H1|]. split; [|split].
  - unfold want_ok. rewrite <- problems_nil, H2. destruct (problems (since_run h)); split; congruence.
  - intros n Hn. rewrite H2 in Hn. destruct (problems (since_run h)); [discriminate|]. congruence.
  - exact (proj1 (same_counts sec_eqb (pair_eqb_spec _ _ Nat.eqb_eq Nat.eqb_eq) _ _) H3).
Qed.

Theorem spec_seq_sound : forall i o, spec_seq i o = true -> Spec_seq i o.
Proof.
  intros i o H. unfold spec_seq in H. apply andb_true_iff in H as [H H3]. apply andb_true_iff in H as [H1 H2].
  unfold stop_okb in H2. apply andb_true_iff in H2 as [H2a H2b]. unfold Spec_seq. repeat split.
  - intros He Hx. unfold verdict_okb in H1. rewrite He, Hx in H1. apply lbool_eqb_spec in H1. rewrite H1.
    apply Forall2_map_r, Forall2_diag. reflexivity.
  - revert H2a. apply forall2b_sound. intros h stops E. apply lbool_eqb_spec in E. subst stops.
    apply Forall2_map_r, Forall2_diag. reflexivity.
  - revert H2b. apply forall2b_sound. intros top stops. apply bool_eqb_spec.
  - revert H3. apply forall2b_sound. intros li sums E. destruct (li_text li).
    + revert E. apply forall2b_sound. intros h s. apply summary_okb_sound.
    + destruct sums; [reflexivity|discriminate].
Qed.

(* From here on c_run is the field of `core` above; the scheduler's thread step is written Result.c_run. *)
Definition pending (t : cth) : list op := if snd t then tl (fst t) else fst t.
Definition held_ok (t : cth) : Prop := snd t = true -> fst t <> [].
(* the scheduler steps a thread still needs: two per pending call, one less while it holds the semaphore *)
Definition weight (t : cth) : nat := length (fst t) + length (pending t).
Definition total_weight (ts : list cth) : nat := list_sum (map weight ts).

Lemma nth_error_set_nth {A} (l : list A) : forall k x, k < length l -> nth_error (set_nth k x l) k = Some x.
Proof.
  induction l as [|y r IH]; intros [|k] x H; simpl in *; try (inversion H; fail); [reflexivity|].
  apply IH, Nat.succ_lt_mono, H.
Qed.

Lemma map_set_nth {A B} (f : A -> B) (l : list A) : forall k x, map f (set_nth k x l) = set_nth k (f x) (map f l).
Proof. induction l as [|y r IH]; intros [|k] x; simpl; try reflexivity. rewrite IH. reflexivity. Qed.

Lemma set_nth_same {A} (l : list A) : forall k x, nth_error l k = Some x -> set_nth k x l = l.
Proof.
  induction l as [|y r IH]; intros [|k] x H; simpl in *; try discriminate; try reflexivity.
  - injection H as ->. reflexivity.
  - rewrite IH by exact H. reflexivity.
Qed.

Lemma Forall_set_nth {A} (P : A -> Prop) (l : list A) : forall k x, Forall P l -> P x -> Forall P (set_nth k x l).
Proof.
  induction l as [|y r IH]; intros [|k] x H Hx; simpl; try constructor; inversion H; subst; auto.
Qed.

Lemma weight_set_nth (ts : list cth) : forall k t t', nth_error ts k = Some t -> weight t = S (weight t') ->
  total_weight ts = S (total_weight (set_nth k t' ts)).
Proof.
  unfold total_weight. induction ts as [|y r IH]; intros [|k] t t' H E; simpl in *; try discriminate.
  - injection H as ->. rewrite E. reflexivity.
  - rewrite (IH k t t' H E). apply Nat.add_succ_r.
Qed.

Lemma run_ready t : c_done t = false ->
  held_ok (Result.c_run t) /\ weight t = S (weight (Result.c_run t)).
Proof.
  destruct t as [[|o l] [|]]; try discriminate; intros _; unfold held_ok, weight; simpl; split;
    try discriminate; rewrite ?Nat.add_succ_r; reflexivity.
Qed.

Lemma in_rotation want n k : k < n -> In k (rotation want n).
Proof.
  intro H. unfold rotation. assert (W : want mod n < n) by (apply Nat.mod_upper_bound; lia).
  apply in_or_app. rewrite !in_seq. lia.
Qed.

Lemma ready_exists ts : Forall held_ok ts -> forallb c_done ts = false ->
  exists t, In t ts /\ c_ready (negb (existsb snd ts)) t = true.
Proof.
  intros Inv Hnd. unfold c_ready. destruct (existsb snd ts) eqn:Eh.
  - (* the thread that holds the semaphore *)
    apply existsb_exists in Eh as [t [Hin Hs]]. exists t. split; [exact Hin|]. rewrite Hs, andb_true_r.
    rewrite Forall_forall in Inv. specialize (Inv t Hin Hs).
    unfold c_done. destruct (fst t); [contradiction|reflexivity].
  - (* nobody holds it: any thread that is not through *)
    induction ts as [|t r IH]; [discriminate|]. simpl in *. apply orb_false_iff in Eh as [_ Eh].
    inversion Inv; subst. destruct (c_done t) eqn:Ed.
    + destruct (IH H2 Hnd Eh) as [t' [Hin Hr]]. exists t'. auto.
    + exists t. rewrite Ed, orb_true_r. auto.
Qed.

Lemma pick_some want ts : Forall held_ok ts -> forallb c_done ts = false ->
  exists k t, pick want ts = Some k /\ nth_error ts k = Some t /\ c_ready (negb (existsb snd ts)) t = true.
Proof.
  intros Inv Hnd. unfold pick. destruct (find _ (rotation want (length ts))) as [k|] eqn:E.
  - apply find_some in E as [_ E]. destruct (nth_error ts k) as [t|] eqn:Et; [|discriminate]. eauto.
  - exfalso. destruct (ready_exists ts Inv Hnd) as [t [Hin Hr]]. apply In_nth_error in Hin as [k Hk].
    assert (Hlt : k < length ts) by (apply nth_error_Some; congruence).
    pose proof (find_none _ _ E k (in_rotation want _ _ Hlt)) as Z. simpl in Z. rewrite Hk in Z. congruence.
Qed.

Lemma merge_done ths : forallb is_nil ths = true -> merge ths [] = Some [].
Proof. intro H. simpl. rewrite H. reflexivity. Qed.

Lemma done_pending ts : forallb c_done ts = true -> forallb is_nil (map pending ts) = true.
Proof.
  induction ts as [|t r IH]; [reflexivity|]. simpl. intro E. apply andb_true_iff in E as [E1 E2].
  rewrite (IH E2), andb_true_r. destruct t as [[|o l] [|]]; try discriminate; reflexivity.
Qed.

Lemma light_done ts : total_weight ts = 0 -> forallb c_done ts = true.
Proof.
  unfold total_weight. induction ts as [|t r IH]; [reflexivity|]. simpl. intro E.
  apply Nat.eq_add_0 in E as [E1 E2]. rewrite (IH E2), andb_true_r.
  destruct t as [[|o l] h]; [reflexivity|discriminate].
Qed.

(* total_weight is the measure (run_ready lowers it by one, so it bounds the fuel); held_ok is the invariant that
   lets the scheduler always find a thread to run (pick_some) *)
Lemma run_sched_complete : forall fuel ts sch, Forall held_ok ts -> total_weight ts <= fuel ->
  exists h, merge (map pending ts) (run_sched fuel ts sch) = Some h.
Proof.
  induction fuel as [|f IH]; intros ts sch Inv Hw.
  - (* no fuel: the weight is 0, so every thread is through *)
    exists []. apply merge_done, done_pending, light_done, Nat.le_0_r, Hw.
  - simpl. destruct (forallb c_done ts) eqn:Ed.
    { exists []. apply merge_done, done_pending, Ed. }
    destruct (pick_some (hd 0 sch) ts Inv Ed) as [k [t [Hp [Hk Hr]]]]. rewrite Hp, Hk.
    apply andb_true_iff in Hr as [Hnd _]. apply negb_true_iff in Hnd.
    destruct (run_ready t Hnd) as [Hh Hs].
    destruct (IH (set_nth k (Result.c_run t) ts) (tl sch)) as [h Hh'].
    { apply Forall_set_nth; assumption. }
    { apply le_S_n. rewrite <- (weight_set_nth ts k t _ Hk Hs). exact Hw. }
    rewrite map_set_nth in Hh'.
    destruct t as [[|o l] [|]]; try discriminate; unfold pending at 1 in Hh'; simpl in Hh' |- *.
    + (* release: nothing changes for the target *)
      exists h. rewrite <- Hh'. f_equal. symmetry.
      apply set_nth_same. rewrite nth_error_map, Hk. reflexivity.
    + (* acquire: the call takes effect *)
      exists (o :: h). rewrite nth_error_map, Hk. simpl.
      unfold cth in *. rewrite Hh'. reflexivity.
Qed.

Theorem linear_order_complete ths sch : exists h, merge ths (linear_order ths sch) = Some h.
Proof.
  unfold linear_order. set (ts := map (fun p : list op => (p, false)) ths).
  assert (E : map pending ts = ths) by (unfold ts; rewrite map_map; apply map_id).
  assert (H : exists h, merge (map pending ts) (run_sched (2 * length (concat ths)) ts sch) = Some h);
    [|rewrite E in H; exact H].
  apply run_sched_complete.
  - unfold ts. apply Forall_forall. intros t Hin. apply in_map_iff in Hin as [p [<- _]]. intro Hc. discriminate.
  - unfold ts, total_weight. clear. induction ths as [|p r IH]; simpl; [apply Nat.le_refl|].
    rewrite app_length. unfold weight at 1, pending. simpl in *. lia.
Qed.

Lemma concat_set_nth (ths : list (list op)) : forall k o rest, nth_error ths k = Some (o :: rest) ->
  length (concat ths) = S (length (concat (set_nth k rest ths))).
Proof.
  induction ths as [|p q IH]; intros [|k] o rest H; simpl in *; try discriminate.
  - injection H as ->. reflexivity.
  - rewrite !app_length, (IH k o rest H). apply Nat.add_succ_r.
Qed.

Lemma merge_length : forall ord ths h, merge ths ord = Some h -> length h = length (concat ths).
Proof.
  induction ord as [|k r IH]; intros ths h H; simpl in H.
  - destruct (forallb is_nil ths) eqn:E; [|discriminate]. injection H as <-.
    induction ths as [|[|] q IHq]; try discriminate; [reflexivity|]. apply IHq, E.
  - destruct (nth_error ths k) as [[|o rest]|] eqn:Ek; try discriminate.
    destruct (merge (set_nth k rest ths) r) as [h'|] eqn:Em; [|discriminate]. injection H as <-.
    simpl. rewrite (IH _ _ Em). symmetry. eapply concat_set_nth, Ek.
Qed.

Lemma finding_with_hist i h : finding_F18 (with_hist i h) = finding_F18 i.
Proof. reflexivity. Qed.

Lemma conc_model i ths sch : conc i = Some (ths, sch) ->
  exists h, merge ths (linear_order ths sch) = Some h
            /\ model i = model_seq (with_hist i (hist i ++ h)) (linear_order ths sch).
Proof.
  intro H. destruct (linear_order_complete ths sch) as [h Hh]. exists h. split; [exact Hh|].
  unfold model. rewrite H, Hh. reflexivity.
Qed.

Theorem stop_at_reaches p n :
  Forall2 (fun pa b => is_prefix p pa = true -> b = true) (fpaths (frame n)) (leaf_stops (stop_at p n)).
Proof.
  rewrite leaf_stops_lvs, stop_at_ok. unfold map2. rewrite map_map.
  pose proof (fpaths_length n) as Hl. revert Hl. generalize (fpaths (frame n)) (lvs n).
  induction l as [|pa l IH]; intros [|x m] Hl; simpl in Hl; try discriminate; simpl; constructor.
  - unfold mark. simpl. intros ->. destruct x; reflexivity.
  - apply IH. injection Hl as Hl. exact Hl.
Qed.

Theorem stop_reaches_all n : Forall (fun b => b = true) (leaf_stops (stop n)).
Proof.
  eapply F2_Forall_r; [apply (stop_at_reaches [] n)|]. intros pa b H. apply H. reflexivity.
Qed.

Theorem exit_status_ok ok : exit_status ok = 0 <-> ok = true.
Proof. destruct ok; split; intro H; try reflexivity; discriminate. Qed.

Theorem exit_after i pre : wf_stack (stack i) = true -> finding_F18 i = false -> has_e2s i = false ->
  has_foreign i = false ->
  (exit_status (was_ok (fold_left do_op pre (init (stack i) (set_after i)))) = 0
   <-> existsb is_problem (since_run pre) = false).
Proof.
  intros Hwf Hf He Hx. rewrite exit_status_ok, (was_ok_after i pre Hwf Hf He Hx). unfold want_ok.
  apply negb_true_iff.
Qed.

Theorem exit_arg_small ok : exit_arg ok < 256.
Proof. apply Nat.ltb_lt. destruct ok; reflexivity. Qed.

Lemma summary_eqb_spec a b : summary_eqb a b = true <-> a = b.
Proof.
  destruct a, b. unfold summary_eqb, sec_list_eqb; simpl.
  eqb_components ltac:(first [apply Nat.eqb_eq | apply onat_eqb_spec
                             | apply (list_eqb_spec sec_eqb (pair_eqb_spec _ _ Nat.eqb_eq Nat.eqb_eq))]).
Qed.

Definition witness_F18a : input :=
  {| stack := ATFR (ATR false false); set_after := Some true;
     hist := [StartRun; StartTest 1; Outcome KError true 1; StopTest 1]; conc := None |}.
Definition witness_F18b : input :=
  {| stack := AMulti [ATR true false]; set_after := None; hist := [Outcome KError true 1]; conc := None |}.

Theorem refuted_F18 :
  (wf witness_F18a /\ finding_F18 witness_F18a = true /\ spec_okb witness_F18a (model witness_F18a) = false)
  /\ (wf witness_F18b /\ finding_F18 witness_F18b = true /\ spec_okb witness_F18b (model witness_F18b) = false).
Proof. vm_compute. repeat split. Qed.

(* Every failfast the stack reads is b: the underlying results have exactly b; whatever an
   ExtendedToOriginalDecorator or the outermost caller may read instead of theirs implies b. *)
Fixpoint all_ff (b : bool) (n : node) : bool :=
  match n with
  | NTR r => Bool.eqb (tr_ff r) b
  | NE2S e => Bool.eqb (e_ff e) b
  | NFor f => Bool.eqb (fo_ff f) b
  | NMulti l => forallb (fun ec => (has_ff (snd ec) || implb (fst ec) b) && all_ff b (snd ec)) l
  | NTFR ff e x => implb ff b && (has_ff x || implb e b) && all_ff b x
  | NE2O e x => (has_ff x || implb e b) && all_ff b x
  | NDeco ff x => match ff with Some b' => implb b' b | None => true end && all_ff b x
  end.

Lemma all_ff_get b n : all_ff b n = true -> implb (get_ff n) b = true.
Proof.
  induction n as [r|e|f|l IH|ff e x IH|e x IH|ff x IH] using node_ind'; simpl; intro H.
  1-3: apply eqb_prop in H; rewrite H; destruct b; reflexivity.
  - destruct IH as [|ec r H1 _]; [reflexivity|]. simpl in H. apply andb_true_iff in H as [H _].
    apply andb_true_iff in H as [H2 H3]. destruct (has_ff (snd ec)); [auto|exact H2].
  - apply andb_true_iff in H as [H _]. apply andb_true_iff in H as [H _]. exact H.
  - apply andb_true_iff in H as [H1 H2]. destruct (has_ff x); [auto|exact H1].
  - apply andb_true_iff in H as [H _]. destruct ff; [exact H|reflexivity].
Qed.

Lemma all_ff_e2o b e x : (has_ff x || implb e b) && all_ff b x = true ->
  forall cov, cov || e2o_get (e, x) || b = cov || b.
Proof.
  intros H cov. apply andb_true_iff in H as [H1 H2]. apply all_ff_get in H2. unfold e2o_get; simpl.
  destruct (has_ff x); simpl in H1; destruct cov, b, (get_ff x), e; try reflexivity; discriminate.
Qed.

Lemma all_ff_will b n : all_ff b n = true -> forall cov, will_stop cov n = map (fun _ => cov || b) (lvs n).
Proof.
  induction n as [r|e|f|l IH|ff e x IH|e x IH|ff x IH] using node_ind'; simpl; intros H cov.
  1-3: apply eqb_prop in H; rewrite H; reflexivity.
  - induction IH as [|[e c] r Hx _ IHr]; [reflexivity|]. simpl in H, Hx |- *.
    apply andb_true_iff in H as [H Hr]. rewrite map_app, <- IHr by exact Hr. f_equal.
    rewrite Hx by (apply andb_true_iff in H; apply H). erewrite map_ext; [reflexivity|].
    intro. apply (all_ff_e2o b e c H).
  - apply andb_true_iff in H as [H H3]. apply andb_true_iff in H as [_ H2].
    rewrite IH by exact H3. apply map_ext. intro. apply all_ff_e2o. rewrite H2, H3. reflexivity.
  - rewrite IH by (apply andb_true_iff in H; apply H). apply map_ext. intro. apply all_ff_e2o, H.
  - apply IH. apply andb_true_iff in H. apply H.
Qed.

Lemma has_ff_set b n : has_ff (set_ff b n) = true.
Proof. destruct n as [r|e|f|l|ff e x|e x|ff x]; simpl; try reflexivity. destruct (has_ff x); reflexivity. Qed.

Lemma all_off_set n : all_ff false n = true -> all_ff false (set_ff false n) = true.
Proof.
  induction n as [r|e|f|l IH|ff e x IH|e x IH|ff x IH] using node_ind'; simpl; intro H; try reflexivity.
  - rewrite forallb_map. apply forallb_forall. intros ec Hin.
    rewrite forallb_forall in H. specialize (H ec Hin). apply andb_true_iff in H as [H1 H2].
    rewrite Forall_forall in IH. destruct (has_ff (snd ec)) eqn:E; simpl; [rewrite has_ff_set; apply IH; assumption|].
    rewrite E. exact H2.
  - apply andb_true_iff in H as [H H3]. apply andb_true_iff in H as [_ H2]. rewrite H2, H3. reflexivity.
  - apply andb_true_iff in H as [H1 H2]. destruct (has_ff x) eqn:E; simpl; [rewrite has_ff_set; apply IH; exact H2|].
    rewrite E. exact H2.
  - apply andb_true_iff in H as [_ H]. exact H.
Qed.

Lemma build_all_off a : ff_ctor_anywhere a = false -> all_ff false (build a) = true.
Proof.
  induction a as [ff txt| |c|l IH|x IH|x IH|t x IH] using adapter_ind'; simpl; intro H; try reflexivity;
    try (apply IH; exact H); try (rewrite (IH H), orb_true_r; reflexivity).
  - rewrite H. reflexivity.
  - rewrite forallb_map. apply forallb_forall. intros x Hin. rewrite Forall_forall in IH.
    specialize (IH x Hin (proj1 (existsb_false _ _) H _ Hin)).
    unfold e2o_set; simpl. destruct (has_ff (build x)); simpl; rewrite ?orb_true_r; [apply all_off_set|]; exact IH.
Qed.

Lemma li_ff_any a : existsb li_ff (leaf_infos a) = ff_ctor_anywhere a.
Proof.
  induction a as [ff txt| |c|l IH|x IH|x IH|t x IH] using adapter_ind'; try reflexivity;
    try (simpl; rewrite existsb_map; exact IH).
  - apply orb_false_r.
  - rewrite leaf_infos_Multi. simpl. generalize 0.
    induction IH as [|x r H _ IHr]; intro k; simpl; [reflexivity|].
    rewrite existsb_app, existsb_map, IHr. f_equal. exact H.
Qed.

Lemma li_ff_down j li : li_ff (li_down j li) = li_ff li.
Proof. reflexivity. Qed.

(* if a decorator around such a stack reads failfast = True, every result below has it *)
Lemma built_reads_ff a : ff_ctor_in_multi a = false -> e2o_get (false, build a) = true ->
  forall li, In li (leaf_infos a) -> li_ff li = true.
Proof.
  induction a as [ff txt| |c|l IH|x IH|x IH|t x IH] using adapter_ind'; intros H G li Hin; try discriminate.
  - destruct Hin as [<-|[]]. exact G.
  - pose proof (all_ff_get _ _ (build_all_off (AMulti l) H)) as Z.
    change (get_ff (build (AMulti l)) = true) in G. rewrite G in Z. discriminate.
  - simpl in Hin. apply in_map_iff in Hin as [li' [<- Hin]]. apply (IH H G li' Hin).
Qed.

Lemma built_will a : ff_ctor_in_multi a = false ->
  forall cov, will_stop cov (build a) = map (fun li => cov || li_ff li) (leaf_infos a).
Proof.
  (* below an ExtendedToOriginalDecorator (explicit, or the one a ThreadsafeForwardingResult makes) *)
  assert (cover : forall x, ff_ctor_in_multi x = false ->
            (forall cov, will_stop cov (build x) = map (fun li => cov || li_ff li) (leaf_infos x)) ->
            forall cov, will_stop (cov || e2o_get (false, build x)) (build x)
                        = map (fun li => cov || li_ff li) (leaf_infos x)).
  { intros x H IH cov. rewrite IH. apply map_ext_in. intros li Hin.
    destruct (e2o_get (false, build x)) eqn:G; [|rewrite orb_false_r; reflexivity].
    rewrite (built_reads_ff x H G li Hin), !orb_true_r. reflexivity. }
  induction a as [ff txt| |c|l IH|x IH|x IH|t x IH] using adapter_ind'; intros H cov; try reflexivity.
  - rewrite (all_ff_will false _ (build_all_off (AMulti l) H)).
    rewrite (map_ext_in (fun li => cov || li_ff li) (fun _ => cov || false));
      [apply map_const_length, (init_length (AMulti l) None)|].
    assert (Hn : existsb li_ff (leaf_infos (AMulti l)) = false) by (rewrite li_ff_any; exact H).
    intros li Hin. rewrite (proj1 (existsb_false _ _) Hn li Hin). reflexivity.
  - simpl. rewrite map_map. apply (cover x H (IH H)).
  - simpl. rewrite map_map. apply (cover x H (IH H)).
  - simpl. rewrite (IH H), map_map. reflexivity.
Qed.

Lemma set_ff_twice b b' n : set_ff b (set_ff b' n) = set_ff b n.
Proof.
  induction n as [r|e|f|l IH|ff e x IH|e x IH|ff x IH] using node_ind'; simpl; try reflexivity.
  - f_equal. rewrite map_map. apply map_ext_Forall. eapply Forall_impl; [|exact IH]. intros ec H. simpl.
    destruct (has_ff (snd ec)) eqn:E; simpl; [rewrite has_ff_set, H; reflexivity|rewrite E; reflexivity].
  - destruct (has_ff x) eqn:E; simpl; [rewrite has_ff_set, IH; reflexivity|rewrite E; reflexivity].
Qed.

Lemma plain_has_ff a : has_wrapper a = false -> has_ff (build a) = true.
Proof. destruct a; simpl; intro H; try reflexivity; discriminate. Qed.

(* without a ThreadsafeForwardingResult / TestResultDecorator / Tagger an assignment reaches everything *)
Lemma plain_all b a : has_wrapper a = false -> all_ff b (set_ff b (build a)) = true.
Proof.
  induction a as [ff txt| |c|l IH|x IH|x IH|t x IH] using adapter_ind'; simpl; intro H; try discriminate;
    try apply eqb_reflx.
  - rewrite map_map, forallb_map. apply forallb_forall. intros x Hin. rewrite Forall_forall in IH.
    pose proof (proj1 (existsb_false _ _) H _ Hin) as Hx. unfold e2o_set; simpl. rewrite (plain_has_ff x Hx). simpl.
    rewrite has_ff_set, set_ff_twice. simpl. rewrite has_ff_set. apply (IH x Hin Hx).
  - rewrite (plain_has_ff x H). simpl. rewrite has_ff_set. apply (IH H).
Qed.

(* F18 only where the finding says *)
Theorem finding_F18_confined i : finding_F18 i = true ->
  set_on_wrapper_stack i = true \/ ff_ctor_in_multi (stack i) = true.
Proof.
  intro Hf. destruct (set_on_wrapper_stack i) eqn:Ew; [left; reflexivity|].
  destruct (ff_ctor_in_multi (stack i)) eqn:Ec; [right; reflexivity|]. exfalso.
  unfold finding_F18 in Hf. apply negb_true_iff in Hf.
  assert (E : effective_ff i = map (intended_ff i) (leaf_infos (stack i))).
  { unfold effective_ff, intended_ff, set_on_wrapper_stack, init in *. destruct (set_after i) as [b|].
    - rewrite (all_ff_will b _ (plain_all b _ Ew)). apply map_const_length, (init_length _ (Some b)).
    - rewrite (built_will _ Ec). reflexivity. }
  rewrite E in Hf. rewrite (proj2 (lbool_eqb_spec _ _) eq_refl) in Hf. discriminate.
Qed.
