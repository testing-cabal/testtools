(* C14 - proofs.  The model of AsynchronousDeferredRunTest on a virtual clock
   (Model/AsyncRun.v) meets the statement (Spec/C14.v) for EVERY program: any stage
   behaviours, any number of cleanups, any delays relative to the timeout, any
   interrupt instant, both runner variants, all logging options, any number of
   pre-installed observers.  Induction over the cleanup list / invariants over the
   stage chain; no enumeration. *)
From TT Require Import Lib.Base Lib.EqbFacts Lib.ListFacts Model.Reactor Model.AsyncRun Spec.C14 Corr.C14 Gen.Spinnertabs
                       Proof.ReactorFacts.

Lemma cls_eqb_spec a b : cls_eqb a b = true <-> a = b.
Proof. destruct a, b; simpl; eqb_components idtac. Qed.
Lemma ev_eqb_spec a b : ev_eqb a b = true <-> a = b.
Proof. destruct a, b; simpl; eqb_components idtac. Qed.
Lemma log_eqb_spec a b : log_eqb a b = true <-> a = b.
Proof. apply list_eqb_spec, pair_eqb_spec; apply Nat.eqb_eq. Qed.

Lemma reports_success_iff es : reports_success es = true <-> In AddSuccess es.
Proof.
  unfold reports_success. rewrite existsb_exists. split.
  - intros [x [Hin E]]. apply ev_eqb_spec in E. subst. exact Hin.
  - intro H. exists AddSuccess. split; [exact H | reflexivity].
Qed.

Lemma one_outcome_iff es :
  one_outcome es = true <->
  exists x, es = [StartTest; x; StopTest] /\ In x [AddSuccess; AddError; AddFailure; AddSkip].
Proof.
  split.
  -
    intro H.
    destruct es as [|a [|x [|b [|c r]]]]; simpl in H; try discriminate;
      destruct a; simpl in H; try discriminate;
      destruct b; simpl in H; try discriminate.
    exists x. split; [reflexivity|].
    destruct x; simpl in *; try discriminate; auto.
  - intros [x [-> Hin]]. simpl in Hin |- *.
    destruct Hin as [<-|[<-|[<-|[<-|[]]]]]; reflexivity.
Qed.

Lemma bool_eqb_iff a b : Bool.eqb a b = true <-> (a = true <-> b = true).
Proof. destruct a, b; simpl; intuition congruence. Qed.

Lemma cut_kind_flag p b :
  Bool.eqb b (match cut_kind p with KInterrupt => true | KTimeout => false end) = true
  <-> (b = true <-> cut_kind p = KInterrupt).
Proof. rewrite bool_eqb_iff. destruct (cut_kind p); intuition congruence. Qed.

(* the three-way comparison of log_okb against the two overlapping cases of Walk *)
Lemma walk_at (u C : time) (a b : bool) :
  (if Nat.ltb u C then a else if Nat.eqb u C then b || a else b) = true
  <-> (u <= C /\ a = true) \/ (C <= u /\ b = true).
Proof.
  destruct (Nat.ltb_spec u C); [|destruct (Nat.eqb_spec u C)]; rewrite ?orb_true_iff; intuition lia.
Qed.

(* the executable walk checker is the inductive one *)
Lemma log_okb_walk C : forall pl t log, log_okb C t pl log = true <-> Walk C t pl log.
Proof.
  induction pl as [|[k st] r IH]; intros t log.
  - cbn [log_okb]. rewrite is_nil_true. split; [intros ->; constructor | intro W; inversion W; reflexivity].
  - destruct log as [|[k' t'] lr]; cbn [log_okb]; [split; [discriminate | intro W; inversion W]|].
    rewrite !andb_true_iff, !Nat.eqb_eq. split.
    + intros [[<- <-] H]. destruct (completes t st) as [|u|] eqn:E.
      * apply W_now; [exact E | apply IH, H].
      * apply walk_at in H as [[Hu H]|[Hu H]].
        -- apply (W_go C t k st r lr u E Hu), IH, H.
        -- apply is_nil_true in H. subst lr. apply (W_late C t k st r u E Hu).
      * apply is_nil_true in H. subst lr. apply W_never, E.
    + intro W.
      inversion W as [ | ? ? ? ? ? Hc Hw | ? ? ? ? ? u Hc Hu Hw | ? ? ? ? u Hc Hu | ? ? ? ? Hc]; subst;
        (split; [split; reflexivity|]); rewrite Hc.
      * apply IH, Hw.
      * apply walk_at. left. split; [exact Hu | apply IH, Hw].
      * apply walk_at. right. split; [exact Hu | reflexivity].
      * reflexivity.
Qed.

Lemma spec_okb_iff p o : spec_okb p o = true <-> Spec p o.
Proof.
  unfold spec_okb, Spec. rewrite <- !andb_assoc.
  apply andb_iff; [apply log_okb_walk|].
  apply andb_iff; [apply one_outcome_iff|].
  apply andb_iff.
  { (* success iff completed, clean, nothing left: the two sides differ only in how the conjunction is nested *)
    rewrite bool_eqb_iff, reports_success_iff, !andb_true_iff, Nat.eqb_eq. tauto. }
  apply andb_iff.
  {
    destruct (completed p); [split; [discriminate | reflexivity]|].
    rewrite andb_true_iff, (list_eqb_spec ev_eqb ev_eqb_spec), cut_kind_flag.
    split; [intros H _; exact H | intro H; apply H; reflexivity]. }
  apply andb_iff; [apply Nat.eqb_eq | reflexivity].
Qed.

(* Go B t pl l t': the stages of pl all completed (the asynchronous ones strictly before instant B), one after
   the other from instant t, the last one at t'; l is their log *)
Inductive Go (B : time) : time -> list (nat * stage) -> list (nat * time) -> time -> Prop :=
| Go_end : forall t, Go B t [] [] t
| Go_now : forall t k st r l t', completes t st = Immediately -> Go B t r l t' ->
                                 Go B t ((k, st) :: r) ((k, t) :: l) t'
| Go_at : forall t k st r l u t', completes t st = At u -> u < B -> Go B u r l t' ->
                                  Go B t ((k, st) :: r) ((k, t) :: l) t'.

Lemma go_weaken B B' t pl l t' : B <= B' -> Go B t pl l t' -> Go B' t pl l t'.
Proof.
  intros LE G. induction G.
  - constructor.
  - apply Go_now; assumption.
  - apply (Go_at B' t k st r l u t'); [assumption | lia | assumption].
Qed.

Lemma go_app B t p1 l1 t1 p2 l2 t2 :
  Go B t p1 l1 t1 -> Go B t1 p2 l2 t2 -> Go B t (p1 ++ p2) (l1 ++ l2) t2.
Proof.
  intros G1 G2. induction G1; cbn [app].
  - exact G2.
  - apply Go_now; [assumption | apply IHG1; exact G2].
  - apply (Go_at B t k st _ _ u t2); [assumption | assumption | apply IHG1; exact G2].
Qed.

Lemma go_ids B t pl l t' : Go B t pl l t' -> map fst l = map fst pl.
Proof. intro G. induction G; simpl; congruence. Qed.

Lemma go_expected C t p1 l t1 rest : Go C t p1 l t1 ->
  expected_log C t (p1 ++ rest) = (l ++ fst (expected_log C t1 rest), snd (expected_log C t1 rest)).
Proof.
  intro G. induction G; cbn [app expected_log].
  - destruct (expected_log C t rest); reflexivity.
  - unfold fires_at at 1. rewrite H, IHG. reflexivity.
  - unfold fires_at at 1. rewrite H, (proj2 (Nat.ltb_lt u C) H0), IHG. reflexivity.
Qed.

Lemma go_walk C t p1 l1 t1 p2 l2 :
  Go (S C) t p1 l1 t1 -> Walk C t1 p2 l2 -> Walk C t (p1 ++ p2) (l1 ++ l2).
Proof.
  intros G W. induction G; cbn [app].
  - exact W.
  - apply W_now; [assumption | apply IHG; exact W].
  - apply (W_go C t k st _ _ u); [assumption | lia | apply IHG; exact W].
Qed.

Lemma go_walk_all C t pl l t' : Go (S C) t pl l t' -> Walk C t pl l.
Proof.
  intro G. rewrite <- (app_nil_r pl), <- (app_nil_r l).
  apply (go_walk C t pl l t' [] [] G). constructor.
Qed.

(* the stage started at t is not over when the run is cut at C: due = when its Deferred is due *)
Definition stops (C t : time) (st : stage) (due : option time) : Prop :=
  (exists u, completes t st = At u /\ C <= u /\ due = Some u) \/ (completes t st = NeverC /\ due = None).

Lemma stops_fires_none C t st due : stops C t st due -> fires_at C t st = None.
Proof.
  unfold fires_at. intros [[u (E & L & _)]|[E _]]; rewrite E; [|reflexivity].
  assert (X : Nat.ltb u C = false) by (apply Nat.ltb_ge; exact L). rewrite X. reflexivity.
Qed.

Lemma stops_walk C t st due k r : stops C t st due -> Walk C t ((k, st) :: r) [(k, t)].
Proof.
  intros [[u (E & L & _)]|[E _]]; [apply (W_late C t k st r u E L) | apply W_never; exact E].
Qed.

Definition noraise (st : stage) : bool := negb (stage_raises st).
Definition exc_of (st : stage) : option cls :=
  match s_ret st with RRaise c => Some c | RFired f => f | RLater _ f => f | RChained _ f => f | _ => None end.
Definition noleave (ks : nat * stage) : Prop := s_leave (snd ks) = [].

Lemma completes_of t st :
  completes t st = match completion_of (s_ret st) with
                   | NowWith _ => Immediately | After d _ => At (t + d) | NeverDone => NeverC
                   end.
Proof. unfold completes. destruct (s_ret st); reflexivity. Qed.

Lemma exc_of_completion st :
  exc_of st = match completion_of (s_ret st) with NowWith f | After _ f => f | NeverDone => None end.
Proof. unfold exc_of. destruct (s_ret st); reflexivity. Qed.

Lemma raises_exc_of st : stage_raises st = match exc_of st with Some _ => true | None => false end.
Proof. unfold exc_of, stage_raises. destruct (s_ret st) as [|c|[c|]|d [c|]|d [c|]|]; reflexivity. Qed.

Lemma exc_of_none st : exc_of st = None <-> noraise st = true.
Proof. unfold noraise. rewrite raises_exc_of. destruct (exc_of st); simpl; split; congruence. Qed.

Fixpoint count (f : stage -> bool) (l : list stage) : nat :=
  match l with [] => 0 | x :: r => b2n (f x) + count f r end.

Lemma count_app f a b : count f (a ++ b) = count f a + count f b.
Proof. induction a; simpl; lia. Qed.

Lemma count_zero f l : count f l = 0 <-> forallb (fun x => negb (f x)) l = true.
Proof.
  induction l as [|a l IH]; simpl; [split; reflexivity|].
  rewrite andb_true_iff, <- IH. destruct (f a); simpl.
  - split; [intro H; discriminate H | intros [H _]; discriminate H].
  - split; [intro H; split; [reflexivity | exact H] | intros [_ H]; exact H].
Qed.

Lemma note_now c m : m_now (note_failure c m) = m_now m.
Proof. destruct c; reflexivity. Qed.
Lemma note_log c m : m_log (note_failure c m) = m_log m.
Proof. destruct c; reflexivity. Qed.
Lemma note_pending c m : m_pending (note_failure c m) = m_pending m.
Proof. destruct c; reflexivity. Qed.

(* the accounting of failures, logged errors, dropped Deferreds and pollers.
   ex = the stages executed so far; last = the failure of a cleanup that _run_cleanups has not noted yet *)
Definition AccL (last : option cls) (ex : list stage) (m : sim) : Prop :=
  (m_fails m = 0 /\ last = None <-> forallb noraise ex = true)
  /\ (m_fails m = 0 <-> m_excs m = [])
  /\ m_logged m = count s_logerr ex
  /\ m_dropped m = count s_drop ex
  /\ m_pollers m = count s_poll ex.
Definition Acc := AccL None.

Lemma Acc0 : Acc [] sim0.
Proof. unfold Acc, AccL; simpl. tauto. Qed.

Lemma merge_none c last : merge c last = None <-> c = None /\ last = None.
Proof. destruct c, last; simpl; split; try (intros [? ?]); try split; congruence. Qed.

Lemma Acc_note last ex m : AccL last ex m -> Acc ex (note_failure last m).
Proof.
  intros (A1 & A2 & A3). destruct last as [x|]; [|exact (conj A1 (conj A2 A3))].
  split; [|split; [|exact A3]]; simpl.
  - split; [intros [H _]; discriminate H | intro H; apply A1 in H as [_ H]; discriminate H].
  - split; intro H; [discriminate H | destruct (m_excs m); discriminate H].
Qed.

Definition went (B : time) (t : time) (st : stage) (t' : time) : Prop :=
  (completes t st = Immediately /\ t' = t) \/ (exists u, completes t st = At u /\ u < B /\ t' = u).

Lemma Acc_stage st m m1 last ex :
  m_excs m1 = m_excs m -> m_fails m1 = m_fails m ->
  m_logged m1 = m_logged m + b2n (s_logerr st) -> m_dropped m1 = m_dropped m + b2n (s_drop st) ->
  m_pollers m1 = m_pollers m + b2n (s_poll st) ->
  AccL last ex m -> AccL (merge (exc_of st) last) (ex ++ [st]) m1.
Proof.
  intros He Hn H1 H2 H3 (A1 & A2 & A3 & A4 & A5). unfold AccL.
  rewrite forallb_snoc, !count_app, He, Hn. cbn [count]. rewrite !Nat.add_0_r.
  split; [|split; [exact A2 | split; [|split]]].
  -
    rewrite andb_true_iff, merge_none, <- exc_of_none, <- A1. tauto.
  - rewrite H1, A3. reflexivity.
  - rewrite H2, A4. reflexivity.
  - rewrite H3, A5. reflexivity.
Qed.

Lemma run_stage_done C k st m c m' :
  run_stage C k st m = Done c m' ->
  went C (m_now m) st (m_now m') /\ m_log m' = m_log m ++ [(k, m_now m)] /\ c = exc_of st
  /\ (s_leave st = [] -> m_pending m = [] -> m_pending m' = [])
  /\ forall last ex, AccL last ex m -> AccL (merge c last) (ex ++ [st]) m'.
Proof.
  unfold run_stage, went. rewrite completes_of, exc_of_completion.
  pose proof (Acc_stage st m) as HA. rewrite exc_of_completion in HA.
  destruct (completion_of (s_ret st)) as [f|d f|]; cbn [start_stage m_now]; [| |discriminate].
  -
    intro H; injection H as <- <-. cbn.
    split; [left; split; reflexivity|]. split; [reflexivity|]. split; [reflexivity|].
    split; [intros -> ->; reflexivity|].
    intros last ex. apply HA; reflexivity.
  -
    destruct (Nat.ltb (m_now m + d) C) eqn:L; [|discriminate]. apply Nat.ltb_lt in L.
    intro H; injection H as <- <-. cbn.
    split; [right; exists (m_now m + d); auto|]. split; [reflexivity|]. split; [reflexivity|].
    split; [intros -> ->; reflexivity|].
    intros last ex. apply HA; reflexivity.
Qed.

Lemma run_stage_cut C k st m m' due f :
  run_stage C k st m = Cut m' due f ->
  stops C (m_now m) st due /\ m_log m' = m_log m ++ [(k, m_now m)] /\ f = exc_of st
  /\ (s_leave st = [] -> m_pending m = [] -> m_pending m' = []).
Proof.
  unfold run_stage, stops. rewrite completes_of, exc_of_completion.
  destruct (completion_of (s_ret st)) as [f0|d f0|]; cbn [start_stage m_now]; [discriminate| |].
  -
    destruct (Nat.ltb (m_now m + d) C) eqn:L; [discriminate|]. apply Nat.ltb_ge in L.
    intro H; injection H as <- <- <-. cbn.
    split; [left; exists (m_now m + d); auto|]. split; [reflexivity|]. split; [reflexivity|].
    intros -> ->. reflexivity.
  -
    intro H; injection H as <- <- <-. cbn.
    split; [right; split; reflexivity|]. split; [reflexivity|]. split; [reflexivity|].
    intros -> ->. reflexivity.
Qed.

Lemma go_one C t k st t1 : went C t st t1 -> Go C t [(k, st)] [(k, t)] t1.
Proof.
  intros [[E ->]|[u (E & L & ->)]]; [apply Go_now | apply (Go_at C t k st [] [] u u)]; try assumption; constructor.
Qed.

(* where a piece of the run that starts at instant t0 with the log log0 and has the stages T ahead ends:
   all of T went through and it is instant t' (done_at), or it waits at a stage of T with `rest` still to do
   (cut_at); log' is the log then.  B bounds the instants at which the Deferreds on the way fired. *)
Definition done_at (B : time) (T : list (nat * stage)) (t0 : time) (log0 : list (nat * time))
                   (t' : time) (log' : list (nat * time)) : Prop :=
  exists L, Go B t0 T L t' /\ log' = log0 ++ L.
Definition cut_at (B C : time) (T : list (nat * stage)) (t0 : time) (log0 log' : list (nat * time))
                  (due f : option _) (rest : list (nat * stage)) : Prop :=
  exists pl1 k st L tk,
    T = pl1 ++ (k, st) :: rest /\ Go B t0 pl1 L tk
    /\ log' = log0 ++ L ++ [(k, tk)] /\ stops C tk st due /\ f = exc_of st.

Lemma done_at_app B T0 L0 T t0 t1 log0 t' log' :
  Go B t0 T0 L0 t1 -> done_at B T t1 (log0 ++ L0) t' log' -> done_at B (T0 ++ T) t0 log0 t' log'.
Proof.
  intros G0 [L [G ->]]. exists (L0 ++ L). split; [apply (go_app B t0 T0 L0 t1 T L t' G0 G) | symmetry; apply app_assoc].
Qed.

Lemma cut_at_app B C T0 L0 T t0 t1 log0 log' due f rest :
  Go B t0 T0 L0 t1 -> cut_at B C T t1 (log0 ++ L0) log' due f rest -> cut_at B C (T0 ++ T) t0 log0 log' due f rest.
Proof.
  intros G0 (pl1 & k & st & L & tk & -> & G & -> & Hs & Hf).
  exists (T0 ++ pl1), k, st, (L0 ++ L), tk.
  split; [apply app_assoc|].
  split; [apply (go_app B t0 T0 L0 t1 pl1 L tk G0 G)|].
  split; [rewrite <- !app_assoc; reflexivity|].
  split; [exact Hs | exact Hf].
Qed.

Lemma cut_at_here B C k st rest t log0 due :
  stops C t st due -> cut_at B C ((k, st) :: rest) t log0 (log0 ++ [(k, t)]) due (exc_of st) rest.
Proof.
  intro Hs. exists [], k, st, [], t.
  split; [reflexivity|]. split; [constructor|]. split; [reflexivity|].
  split; [exact Hs | reflexivity].
Qed.

Lemma cut_at_weaken B B' C T t0 log0 log' due f rest :
  B <= B' -> cut_at B C T t0 log0 log' due f rest -> cut_at B' C T t0 log0 log' due f rest.
Proof.
  intros LE (pl1 & k & st & L & tk & E & G & H). exists pl1, k, st, L, tk.
  split; [exact E|]. split; [apply (go_weaken B B'); assumption | exact H].
Qed.

Lemma cut_at_walk C T t0 log0 log due f rest :
  cut_at (S C) C T t0 log0 log due f rest -> exists L, log = log0 ++ L /\ Walk C t0 T L.
Proof.
  intros (pl1 & k & st & L & tk & -> & G & -> & Hs & _). exists (L ++ [(k, tk)]). split; [reflexivity|].
  apply (go_walk C t0 pl1 L tk); [exact G|]. apply (stops_walk C tk st due k _ Hs).
Qed.

Definition cleanup_plan (p : program) : list (nat * stage) := rev (number_from 0 (i_cleanups p)).

(* what is still to do once the Deferred somebody waits for has fired (with f) *)
Definition todo (p : program) (w : waiting) (f : option cls) : list (nat * stage) :=
  match w with
  | WSetup => match f with
              | Some _ => cleanup_plan p
              | None => (id_body, i_body p) :: (id_teardown, i_teardown p) :: cleanup_plan p
              end
  | WBody => (id_teardown, i_teardown p) :: cleanup_plan p
  | WTeardown => cleanup_plan p
  | WCleanup rest _ => rest
  end.

Definition sim_of (r : rres) : sim := match r with Completed m | Stopped m _ _ _ _ => m end.

(* a piece of the callback graph, entered in state m with the stages T ahead, behaves: either all of T went
   through, or it is waiting at some stage of T and what is still to do is the rest of T; stages that leave
   no delayed call behind leave none *)
Definition ChainOK (C : time) (p : program) (T : list (nat * stage)) (m : sim) (r : rres) : Prop :=
  (Forall noleave T -> m_pending m = [] -> m_pending (sim_of r) = [])
  /\ match r with
     | Completed m' => done_at C T (m_now m) (m_log m) (m_now m') (m_log m')
     | Stopped m' n due f w => cut_at C C T (m_now m) (m_log m) (m_log m') due f (todo p w f)
     end.
Definition Chain (C : time) (p : program) (last : option cls) (T : list (nat * stage)) (m : sim) (r : rres) : Prop :=
  ChainOK C p T m r
  /\ forall ex, AccL last ex m -> match r with Completed m' => Acc (ex ++ map snd T) m' | Stopped _ _ _ _ _ => True end.

Lemma chainok_note C p T c m r : ChainOK C p T (note_failure c m) r <-> ChainOK C p T m r.
Proof. unfold ChainOK. rewrite note_now, note_log, note_pending. tauto. Qed.

Lemma chainok_cons C p k st R m c m1 r :
  run_stage C k st m = Done c m1 -> ChainOK C p R m1 r -> ChainOK C p ((k, st) :: R) m r.
Proof.
  intros E [OKp OK]. apply run_stage_done in E as (Hw & Hl & _ & Hp & _). rewrite Hl in OK.
  pose proof (go_one C _ k st _ Hw) as G1. split.
  - intros F P. inversion F; subst. apply OKp; [assumption | apply Hp; assumption].
  - destruct r; [exact (done_at_app C _ _ R _ _ _ _ _ G1 OK) | exact (cut_at_app C C _ _ R _ _ _ _ _ _ _ G1 OK)].
Qed.

Lemma chainok_cut C p k st m m1 due f n w :
  run_stage C k st m = Cut m1 due f -> ChainOK C p ((k, st) :: todo p w f) m (Stopped m1 n due f w).
Proof.
  intro E. apply run_stage_cut in E as (Hs & Hl & -> & Hp). split; cbn [sim_of].
  - intros F P. inversion F; subst. apply Hp; assumption.
  - rewrite Hl. apply cut_at_here, Hs.
Qed.

(* _run_cleanups, started or resumed with the failure `last` in hand, then clean_up_done *)
Lemma k_cleanups_ok C p : forall cs last m, Chain C p last cs m (k_cleanups C cs last m).
Proof.
  induction cs as [|[k st] r IH]; intros last m; unfold k_cleanups; cbn [run_cleanups].
  - split; [split; cbn [sim_of]|].
    + intros _. rewrite note_pending. tauto.
    + exists []. rewrite note_now, note_log, app_nil_r. split; [constructor | reflexivity].
    + intros ex A. rewrite app_nil_r. apply (Acc_note last), A.
  - destruct (run_stage C k st m) as [c m1|m1 due f] eqn:E.
    + destruct (IH (merge c last) m1) as [OK AC]. fold (k_cleanups C r (merge c last) m1).
      split; [apply (chainok_cons C p k st r m c m1 _ E OK)|].
      intros ex A. apply run_stage_done in E as (_ & _ & _ & _ & HA). specialize (AC _ (HA _ _ A)).
      destruct (k_cleanups C r (merge c last) m1); [|exact I]. cbn [map snd].
      rewrite <- app_assoc in AC. exact AC.
    + split; [apply (chainok_cut C p k st m m1 due f (length r) (WCleanup r last) E) | intros ex _; exact I].
Qed.

Lemma merge_nil c : merge c None = c.
Proof. destruct c; reflexivity. Qed.

Lemma stage_then C p k st (K : option cls -> sim -> rres) w nleft m :
  (forall c m', Chain C p None (todo p w c) (note_failure c m') (K c m')) ->
  Chain C p None ((k, st) :: todo p w (exc_of st)) m
        (match run_stage C k st m with Done c m' => K c m' | Cut m' due f => Stopped m' nleft due f w end).
Proof.
  intros HK. destruct (run_stage C k st m) as [c m1|m1 due f] eqn:E.
  - destruct (HK c m1) as [OK AC]. apply chainok_note in OK.
    pose proof E as E'. apply run_stage_done in E' as (_ & _ & Hc & _ & HA). rewrite <- Hc. split.
    + apply (chainok_cons C p k st _ m c m1 _ E OK).
    + intros ex A. apply HA, Acc_note in A. rewrite merge_nil in A. specialize (AC _ A).
      destruct (K c m1); [|exact I]. cbn [map snd]. rewrite <- app_assoc in AC. exact AC.
  - pose proof E as E'. apply run_stage_cut in E' as (_ & _ & <- & _).
    split; [apply (chainok_cut C p k st m m1 due f nleft w E) | intros ex _; exact I].
Qed.

Lemma tear_down_ok C p m : Chain C p None (todo p WBody None) m (tear_down C p m).
Proof. apply (stage_then C p id_teardown (i_teardown p) (k_teardown C p) WTeardown). intros c m'. apply k_cleanups_ok. Qed.

Lemma run_test_ok C p m : Chain C p None (todo p WSetup None) m (run_test C p m).
Proof. apply (stage_then C p id_body (i_body p) (k_body C p) WBody). intros c m'. apply tear_down_ok. Qed.

Lemma set_up_done_ok C p c m : Chain C p None (todo p WSetup c) (note_failure c m) (set_up_done C p c m).
Proof. destruct c as [x|]; [apply k_cleanups_ok | apply run_test_ok]. Qed.

Lemma plan_todo p : plan p = (id_setup, i_setup p) :: todo p WSetup (exc_of (i_setup p)).
Proof.
  unfold plan, todo. fold (cleanup_plan p). rewrite raises_exc_of.
  destruct (exc_of (i_setup p)); reflexivity.
Qed.

(* _run_deferred *)
Lemma run_deferred_ok C p : Chain C p None (plan p) sim0 (run_deferred C p).
Proof.
  rewrite plan_todo. apply (stage_then C p id_setup (i_setup p) (set_up_done C p) WSetup).
  intros c m'. apply set_up_done_ok.
Qed.

(* the outstanding Deferred fires after all *)
Lemma resume_ok C p w f m : ChainOK C p (todo p w f) m (resume_at C p w f m).
Proof.
  destruct w as [| | |rest last]; cbn [resume_at todo].
  - apply (chainok_note C p _ f m), set_up_done_ok.
  - apply (chainok_note C p _ f m), tear_down_ok.
  - apply (chainok_note C p _ f m), k_cleanups_ok.
  - apply k_cleanups_ok.
Qed.

Lemma settle_or n m : settle n m = m \/ settle n m = advance (m_now m) m.
Proof. destruct n; [left | right]; reflexivity. Qed.

Lemma settle_same n m :
  m_log (settle n m) = m_log m /\ m_fails (settle n m) = m_fails m /\ m_dropped (settle n m) = m_dropped m.
Proof. destruct (settle_or n m) as [-> | ->]; repeat split. Qed.

Lemma settle_log n m : m_log (settle n m) = m_log m.
Proof. apply settle_same. Qed.

Lemma advance_nopend t m : m_pending m = [] -> m_pending (advance t m) = [].
Proof. intro P. cbn. rewrite P. reflexivity. Qed.

Lemma settle_nopend n m : m_pending m = [] -> m_pending (settle n m) = [].
Proof. intro P. destruct (settle_or n m) as [-> | ->]; [exact P | apply advance_nopend, P]. Qed.

(* somebody waits for a stage of the plan and everything before it went through, not after C: the passes keep
   that, or let the rest of the plan go through *)
Lemma late_ok (C : time) p : forall n m nleft due f w,
  cut_at (S C) C (plan p) 0 [] (m_log m) due f (todo p w f) ->
  Walk C 0 (plan p) (m_log (fst (late n C p m nleft due f w)))
  /\ (Forall noleave (plan p) -> m_pending m = [] -> m_pending (fst (late n C p m nleft due f w)) = []).
Proof.
  induction n as [|n IH]; intros m nleft due f w P; cbn [late].
  - destruct (cut_at_walk C _ _ _ _ due f _ P) as (L & EL & W). cbn [fst]. rewrite EL.
    split; [exact W | intros _ H; exact H].
  - destruct (option_eqb Nat.eqb due (Some C)) eqn:Q.
    2:{ destruct (cut_at_walk C _ _ _ _ due f _ P) as (L & EL & W). cbn [fst advance m_log]. rewrite EL.
        split; [exact W | intros _ H; apply advance_nopend, H]. }
    apply (option_eqb_spec Nat.eqb Nat.eqb_eq) in Q. subst due.
    destruct P as (pl1 & k & st & L & tk & E & G & El & Hs & Ef).
    assert (G1 : Go (S C) 0 (pl1 ++ [(k, st)]) (L ++ [(k, tk)]) C).
    { apply (go_app (S C) 0 pl1 L tk); [exact G|]. apply go_one. right. exists C.
      destruct Hs as [[u (Ec & _ & Eu)]|[_ Eu]]; [|discriminate Eu]. injection Eu as <-. auto. }
    assert (Ep : plan p = (pl1 ++ [(k, st)]) ++ todo p w f) by (rewrite E, <- app_assoc; reflexivity).
    destruct (resume_ok C p w f (advance C m)) as [OKp OK]. cbn [advance m_now m_log] in OK. rewrite El in OK.
    assert (Hnl : Forall noleave (plan p) -> m_pending m = [] -> m_pending (sim_of (resume_at C p w f (advance C m))) = []).
    { intros F Pm. rewrite Ep in F. apply Forall_app in F. apply OKp; [apply F | apply advance_nopend, Pm]. }
    destruct (resume_at C p w f (advance C m)) as [m2|m2 n2 due2 f2 w2]; cbn [sim_of] in Hnl.
    + destruct OK as [L2 [G2 I2]]. cbn [fst]. split.
      * rewrite settle_log, I2, Ep. apply (go_walk_all C 0 _ _ (m_now m2)).
        apply (go_app (S C) 0 _ _ C); [exact G1|]. apply (go_weaken C (S C)); [lia | exact G2].
      * intros F Pm. apply settle_nopend, Hnl; assumption.
    + destruct (IH m2 n2 due2 f2 w2) as [IW IP].
      * rewrite Ep. apply (cut_at_app (S C) C _ _ _ 0 C [] _ _ _ _ G1), (cut_at_weaken C (S C)); [lia | exact OK].
      * split; [exact IW|]. intros F Pm. apply (IP F), Hnl; assumption.
Qed.

Lemma rev_nil_inv {A} (l : list A) : rev l = [] -> l = [].
Proof. intro H. rewrite <- (rev_involutive l), H. reflexivity. Qed.

Lemma pick_nil_iff l : pick l = None <-> l = [].
Proof.
  unfold pick. split.
  - destruct (rev l) eqn:E; [intros _; apply rev_nil_inv; exact E | discriminate].
  - intros ->. reflexivity.
Qed.

Lemma ev_of_outcome c : is_outcome (ev_of c) = true.
Proof. destruct c; reflexivity. Qed.
Lemma ev_of_not_success c : ev_eqb AddSuccess (ev_of c) = false.
Proof. destruct c; reflexivity. Qed.

(* the reported exception is the last one, or an earlier one that no handler claims: after a cut both are
   reported by addError *)
Lemma pick_ends_err l tl :
  Forall (eq CErr) tl -> exists c, pick (l ++ CErr :: tl) = Some c /\ ev_of c = AddError.
Proof.
  intro F. unfold pick.
  assert (Hr : exists before, rev (l ++ CErr :: tl) = CErr :: before).
  { rewrite rev_app_distr. cbn [rev]. destruct (rev tl) as [|y r] eqn:E; [simpl; eauto|].
    assert (In y tl) by (apply in_rev; rewrite E; left; reflexivity).
    rewrite Forall_forall in F. rewrite <- (F y H). simpl. eauto. }
  destruct Hr as [before ->].
  destruct (find (fun c => negb (claimed c)) (rev before)) as [c|] eqn:Fi.
  - (* an earlier exception that no handler claims: KeyboardInterrupt *)
    exists c. split; [reflexivity|].
    apply find_some in Fi as [_ Fi]. destruct c; try discriminate Fi; reflexivity.
  - exists CErr. split; reflexivity.
Qed.

Definition successful (p : program) (ok : bool) (u : nat) (m : sim) : bool :=
  ok && Nat.eqb (m_logged m) 0 && Nat.eqb u 0 && negb (dirty p m).
Definition final_excs (p : program) (u : nat) (m : sim) : list cls :=
  m_excs m ++ repeat_err (m_logged m) ++ repeat_err u ++ (if dirty p m then [CErr] else []).

Lemma finish_events p ok u stop n m :
  r_events (finish p ok u stop n m) =
  [StartTest] ++ (if successful p ok u m then [AddSuccess] else [])
    ++ (match pick (final_excs p u m) with Some c => [ev_of c] | None => [] end) ++ [StopTest].
Proof. reflexivity. Qed.

Lemma repeat_err_nil n : repeat_err n = [] <-> n = 0.
Proof. destruct n; simpl; split; try reflexivity; discriminate. Qed.

Lemma final_excs_nil p u m :
  final_excs p u m = [] <-> m_excs m = [] /\ m_logged m = 0 /\ u = 0 /\ dirty p m = false.
Proof.
  unfold final_excs. split.
  - intro H. apply app_eq_nil in H as [H1 H]. apply app_eq_nil in H as [H2 H].
    apply app_eq_nil in H as [H3 H4]. apply repeat_err_nil in H2, H3.
    split; [exact H1|]. split; [exact H2|]. split; [exact H3|].
    destruct (dirty p m); [discriminate | reflexivity].
  - intros (-> & -> & -> & ->). reflexivity.
Qed.

Lemma successful_iff p u m :
  (m_fails m = 0 <-> m_excs m = []) ->
  (successful p (Nat.eqb (m_fails m) 0) u m = true <-> final_excs p u m = []).
Proof.
  intro I. rewrite final_excs_nil. unfold successful.
  rewrite !andb_true_iff, !Nat.eqb_eq, negb_true_iff. tauto.
Qed.

Lemma events_verdict p u stop n m :
  (m_fails m = 0 <-> m_excs m = []) ->
  let ok := Nat.eqb (m_fails m) 0 in
  exists c, r_events (finish p ok u stop n m)
            = [StartTest; if successful p ok u m then AddSuccess else ev_of c; StopTest].
Proof.
  intros I ok. rewrite finish_events. pose proof (successful_iff p u m I) as S. fold ok in S.
  destruct (pick (final_excs p u m)) as [c|] eqn:P; [exists c | exists CErr];
    destruct (successful p ok u m); try reflexivity; exfalso.
  - rewrite (proj1 S eq_refl) in P. discriminate P.
  - apply pick_nil_iff, S in P. discriminate P.
Qed.

Lemma events_stopped p stop n m :
  r_events (finish p false 0 stop n (note_cut m)) = [StartTest; AddError; StopTest].
Proof.
  rewrite finish_events. unfold successful, final_excs. cbn [andb note_cut m_excs m_logged].
  rewrite <- app_assoc. cbn [app].
  destruct (pick_ends_err (m_excs m)
              (repeat_err (m_logged m) ++ repeat_err 0 ++ (if dirty p (note_cut m) then [CErr] else [])))
    as [c [P E]].
  - apply Forall_app. split; [|apply Forall_app; split].
    + unfold repeat_err. apply Forall_forall. intros x Hx. apply repeat_spec in Hx. congruence.
    + constructor.
    + destruct (dirty p (note_cut m)); repeat constructor.
  - fold (note_cut m). rewrite P, E. reflexivity.
Qed.

Lemma dirty_false p m : dirty p m = false <-> junk_of p m = [] /\ m_pollers m = 0.
Proof.
  unfold dirty. destruct (junk_of p m).
  - rewrite Nat.ltb_ge. split; [intro; split; [reflexivity | lia] | intros [_ ->]; lia].
  - split; [discriminate | intros [H _]; discriminate].
Qed.

Lemma spinner_clean_nil q : spinner_clean q = [].
Proof. apply cancel_all, incl_refl. Qed.

Lemma add_obs_fresh x l : ~ In x l -> add_obs x l = l ++ [x].
Proof.
  intro H. unfold add_obs. destruct (existsb (Nat.eqb x) l) eqn:E; [|reflexivity].
  apply existsb_eqb_In in E. contradiction.
Qed.

Lemma remove_obs_last x l : ~ In x l -> remove_obs x (l ++ [x]) = l.
Proof.
  induction l as [|a l IH]; simpl; intro H.
  - rewrite Nat.eqb_refl. reflexivity.
  - destruct (Nat.eqb x a) eqn:E.
    + apply Nat.eqb_eq in E. exfalso. apply H. left. symmetry. exact E.
    + rewrite IH; tauto.
Qed.

Lemma with_observer_undone x l :
  ~ In x l -> clean_fixture (snd (with_observer x l)) (fst (with_observer x l)) = l.
Proof.
  intro H. unfold with_observer, clean_fixture. cbn [fst snd rev app fold_left apply_undo].
  rewrite (add_obs_fresh x l H). apply remove_obs_last. exact H.
Qed.

Lemma no_observers_fold xs : forall l us,
  fold_left (fun acc x => (remove_obs x (fst acc), snd acc ++ [UAdd x])) xs (l, us)
  = (fold_left (fun l x => remove_obs x l) xs l, us ++ map UAdd xs).
Proof.
  induction xs as [|x xs IH]; intros l us; simpl.
  - rewrite app_nil_r. reflexivity.
  - rewrite IH, <- app_assoc. reflexivity.
Qed.

Lemma remove_all_rev r : NoDup r -> fold_left (fun l x => remove_obs x l) r (rev r) = [].
Proof.
  induction r as [|a r IH]; intro N; [reflexivity|].
  inversion N as [|? ? Ha Nr]; subst. cbn [rev fold_left].
  rewrite remove_obs_last; [apply IH; exact Nr | rewrite <- in_rev; exact Ha].
Qed.

Lemma no_observers_spec l : NoDup l -> no_observers l = ([], map UAdd (rev l)).
Proof.
  intro N. unfold no_observers. rewrite no_observers_fold. cbn [app]. f_equal.
  rewrite <- (rev_involutive l) at 2. apply remove_all_rev. apply NoDup_rev. exact N.
Qed.

Lemma readd_all l : forall acc, NoDup (acc ++ l) -> fold_left apply_undo (map UAdd l) acc = acc ++ l.
Proof.
  induction l as [|a l IH]; intros acc N; simpl.
  - rewrite app_nil_r. reflexivity.
  - assert (Ha : ~ In a acc).
    { apply NoDup_remove_2 in N. intro H. apply N. apply in_or_app. left; exact H. }
    rewrite (add_obs_fresh a acc Ha), IH.
    + rewrite <- app_assoc. reflexivity.
    + rewrite <- app_assoc. exact N.
Qed.

Lemma undo_all l : NoDup l -> clean_fixture (map UAdd (rev l)) [] = l.
Proof.
  intro N. unfold clean_fixture. rewrite <- map_rev, rev_involutive.
  apply (readd_all l []). exact N.
Qed.

Lemma initial_fresh p x : x < 2 -> ~ In x (initial_observers p).
Proof. unfold initial_observers. intros H Hin. apply in_seq in Hin. lia. Qed.

Lemma in_add_obs y x l : In y (add_obs x l) -> y = x \/ In y l.
Proof.
  unfold add_obs. destruct (existsb (Nat.eqb x) l); [auto|].
  intro H. apply in_app_or in H as [H|[H|[]]]; auto.
Qed.

(* _run_core enters up to three fixtures (no observers / capture / error observer) and leaves them innermost
   first: each one undoes itself on the list it found, because the observer it adds was not there *)
Lemma observers_restored p : observers_after p = initial_observers p.
Proof.
  unfold observers_after.
  assert (N : NoDup (initial_observers p)) by apply seq_NoDup.
  assert (F0 : ~ In capture_obs (initial_observers p)) by (apply initial_fresh; unfold capture_obs; lia).
  assert (F1 : ~ In error_obs (initial_observers p)) by (apply initial_fresh; unfold error_obs; lia).
  set (l0 := initial_observers p) in *.
  (* suppress_twisted_logging: what is left is part of l0 *)
  assert (S1 : exists l1 u1, (if i_suppress p then no_observers l0 else (l0, [])) = (l1, u1)
                             /\ clean_fixture u1 l1 = l0 /\ incl l1 l0).
  { destruct (i_suppress p).
    - rewrite (no_observers_spec l0 N). eexists; eexists. split; [reflexivity|].
      split; [apply undo_all, N | intros y []].
    - exists l0, []. split; [reflexivity|]. split; [reflexivity | apply incl_refl]. }
  destruct S1 as (l1 & u1 & -> & U1 & I1).
  (* store_twisted_logs: the error observer is still not there *)
  assert (S2 : exists l2 u2, (if i_store p then with_observer capture_obs l1 else (l1, [])) = (l2, u2)
                             /\ clean_fixture u2 l2 = l1 /\ ~ In error_obs l2).
  { destruct (i_store p).
    - eexists; eexists. split; [reflexivity|]. split.
      + apply (with_observer_undone capture_obs l1). intro H. apply F0, I1, H.
      + intro H. apply in_add_obs in H as [H|H]; [discriminate H | apply F1, I1, H].
    - exists l1, []. split; [reflexivity|]. split; [reflexivity|]. intro H. apply F1, I1, H. }
  destruct S2 as (l2 & u2 & -> & U2 & I2).
  pose proof (with_observer_undone error_obs l2 I2) as U3.
  destruct (with_observer error_obs l2) as [l3 u3]. cbn [fst snd] in U3.
  cbv zeta. rewrite U3, U2. exact U1.
Qed.

Definition stop_flag (p : program) : bool := match cut_kind p with KInterrupt => true | KTimeout => false end.

Lemma Acc_settle ex n m : Acc ex m -> Acc ex (settle n m).
Proof. intro A. destruct (settle_or n m) as [-> | ->]; exact A. Qed.

Lemma number_from_Forall (P : stage -> Prop) l : forall k,
  Forall P l -> Forall (fun ks : nat * stage => P (snd ks)) (number_from k l).
Proof. induction l as [|s r IH]; intros k F; simpl; inversion F; subst; constructor; auto. Qed.

Definition no_leftovers (p : program) : Prop :=
  s_leave (i_setup p) = [] /\ s_leave (i_body p) = [] /\ s_leave (i_teardown p) = []
  /\ Forall (fun st => s_leave st = []) (i_cleanups p).

Lemma plan_noleave p : no_leftovers p -> Forall noleave (plan p).
Proof.
  intros (L1 & L2 & L3 & F). unfold plan. constructor; [exact L1|]. apply Forall_app. split.
  - destruct (stage_raises (i_setup p)); repeat constructor; assumption.
  - apply Forall_rev, (number_from_Forall (fun st => s_leave st = [])), F.
Qed.

(* the two ways _run_deferred can end - its Deferred fired iff every planned stage fired before the cut -
   and the final state that _run_core reports in each *)
Lemma run_cases p :
  let C := cut_instant p in
  (exists m, completed p = true /\ Acc (map snd (plan p)) m /\ Go C 0 (plan p) (m_log m) (m_now m)
             /\ (no_leftovers p -> m_pending m = [])
             /\ run p = finish p (Nat.eqb (m_fails m) 0) (m_dropped m) false 0 (settle (iterations p) m))
  \/ (exists m1 n1, completed p = false /\ Walk C 0 (plan p) (m_log m1)
             /\ (no_leftovers p -> m_pending m1 = [])
             /\ run p = finish p false 0 (stop_flag p) n1 (note_cut m1)).
Proof.
  intro C. destruct (run_deferred_ok C p) as [[OKp OK] AC].
  specialize (AC [] Acc0). unfold run. fold C.
  destruct (run_deferred C p) as [m|m n due f w]; cbn [sim_of m_now m_log sim0 app] in *.
  -
    left. exists m. destruct OK as [L [G ->]].
    split.
    { unfold completed. fold C. rewrite <- (app_nil_r (plan p)), (go_expected _ _ _ _ _ [] G). reflexivity. }
    split; [exact AC|]. split; [exact G|].
    split; [|reflexivity].
    intro N. apply OKp; [apply plan_noleave, N | reflexivity].
  -
    right.
    assert (P : cut_at (S C) C (plan p) 0 [] (m_log (reach_cut C m)) due f (todo p w f))
      by (apply (cut_at_weaken C); [lia | exact OK]).
    destruct OK as (pl1 & k & st & L & tk & E & G & I2 & Hs & Ef).
    destruct (late_ok C p (passes p) (reach_cut C m) n due f w P) as [W NP].
    destruct (late (passes p) C p (reach_cut C m) n due f w) as [m1 n1]. exists m1, n1.
    split.
    { unfold completed. fold C. rewrite E, (go_expected _ _ _ _ _ _ G). cbn [expected_log].
      rewrite (stops_fires_none _ _ _ _ Hs). reflexivity. }
    split; [exact W|].
    split; [|reflexivity].
    intro N. apply NP; [apply plan_noleave, N|].
    cbn. rewrite OKp; [reflexivity | apply plan_noleave, N | reflexivity].
Qed.

Lemma forallb_andb {A} (f g : A -> bool) l : forallb (fun x => f x && g x) l = forallb f l && forallb g l.
Proof.
  induction l as [|a l IH]; simpl; [reflexivity|]. rewrite IH.
  destruct (f a), (g a), (forallb f l), (forallb g l); reflexivity.
Qed.

Lemma clean_stages l :
  forallb clean_stage l = true <->
  forallb noraise l = true /\ count s_logerr l = 0 /\ count s_drop l = 0 /\ count s_poll l = 0.
Proof.
  change (forallb clean_stage l)
    with (forallb (fun st => noraise st && negb (s_logerr st) && negb (s_drop st) && negb (s_poll st)) l).
  rewrite !forallb_andb, !andb_true_iff, !count_zero. tauto.
Qed.

Lemma all_clean_stages p : all_clean p = forallb clean_stage (map snd (plan p)).
Proof. unfold all_clean. symmetry. apply forallb_map. Qed.

(* _run_core's `successful`, once everything has been accounted for *)
Lemma successful_spec p ex m : Acc ex m ->
  successful p (Nat.eqb (m_fails m) 0) (m_dropped m) m = true
  <-> forallb clean_stage ex = true /\ junk_of p m = [].
Proof.
  intros (A1 & _ & A3 & A4 & A5). unfold successful.
  rewrite !andb_true_iff, !Nat.eqb_eq, negb_true_iff, dirty_false, clean_stages.
  rewrite <- A1, A3, A4, A5.
  (* both sides are now the same six facts (no failure, the three counters 0, no junk, no poller), grouped differently *)
  tauto.
Qed.

(* the verdict: one outcome, which is a success iff everything completed cleanly and nothing was left behind,
   and an error after a cut; result.stop() exactly after an interrupt *)
Lemma model_verdict p :
  exists c, o_events (model p)
            = [StartTest;
               if completed p && all_clean p && Nat.eqb (o_unrun (model p)) 0 then AddSuccess else ev_of c;
               StopTest]
    /\ (completed p = false -> ev_of c = AddError)
    /\ o_stop (model p) = negb (completed p) && stop_flag p.
Proof.
  unfold model. cbn [o_events o_unrun o_stop]. rewrite all_clean_stages.
  destruct (run_cases p) as [(m & Cp & A & _ & _ & ->) | (m1 & n1 & Cp & _ & _ & ->)]; rewrite Cp.
  - destruct (settle_same (iterations p) m) as (_ & Hsf & Hsd). rewrite <- Hsf, <- Hsd.
    apply (Acc_settle _ (iterations p)) in A. set (ms := settle (iterations p) m) in *.
    destruct (events_verdict p (m_dropped ms) false 0 ms (proj1 (proj2 A))) as [c Ev].
    exists c. split; [|split; [discriminate | reflexivity]]. rewrite Ev. cbn [finish r_unrun andb].
    replace (forallb clean_stage (map snd (plan p)) && Nat.eqb (length (junk_of p ms)) 0)
      with (successful p (Nat.eqb (m_fails ms) 0) (m_dropped ms) ms); [reflexivity|].
    apply eq_true_iff_eq. rewrite (successful_spec p _ ms A), andb_true_iff, Nat.eqb_eq, length_zero_iff_nil. tauto.
  - exists CErr. rewrite events_stopped. split; [reflexivity | split; reflexivity].
Qed.

(* clause 1: the stage log is a walk along the plan *)
Lemma model_log p : Walk (cut_instant p) 0 (plan p) (o_log (model p)).
Proof.
  unfold model. cbn [o_log].
  destruct (run_cases p) as [(m & _ & _ & G & _ & ->) | (m1 & n1 & _ & W & _ & ->)]; cbn [finish r_log].
  - rewrite settle_log. apply (go_walk_all _ 0 _ _ (m_now m)). apply (go_weaken (cut_instant p)); [lia | exact G].
  - exact W.
Qed.

Lemma run_finish p : exists ok u stop n m, run p = finish p ok u stop n m.
Proof. destruct (run_cases p) as [(m & _ & _ & _ & _ & ->) | (m1 & n1 & _ & _ & _ & ->)]; repeat eexists. Qed.

Lemma model_pending p : o_pending (model p) = 0.
Proof.
  unfold model. cbn [o_pending]. destruct (run_finish p) as (ok & u & stop & n & m & ->).
  cbn [finish r_pending]. rewrite spinner_clean_nil. reflexivity.
Qed.

Lemma model_observers p : o_observers_same (model p) = true.
Proof.
  unfold model. cbn [o_observers_same]. destruct (run_finish p) as (ok & u & stop & n & m & ->).
  cbn [finish r_observers]. rewrite observers_restored. apply (eqb_spec_refl _ nats_eqb_spec).
Qed.

Lemma one_outcome_holds p :
  exists x, o_events (model p) = [StartTest; x; StopTest] /\ In x [AddSuccess; AddError; AddFailure; AddSkip].
Proof.
  destruct (model_verdict p) as (c & -> & _). eexists. split; [reflexivity|].
  destruct (_ && _); [|destruct c]; simpl; auto.
Qed.

Lemma success_iff p :
  In AddSuccess (o_events (model p))
  <-> completed p = true /\ all_clean p = true /\ o_unrun (model p) = 0.
Proof.
  destruct (model_verdict p) as (c & -> & _). rewrite <- Nat.eqb_eq, <- !andb_true_iff, andb_assoc.
  destruct (_ && _); split; try reflexivity; try discriminate; simpl; auto.
  intros [H|[H|[H|[]]]]; try discriminate H. destruct c; discriminate H.
Qed.

(* a timeout or an interrupt yields an error - also when the stages that were cut off still ran afterwards -;
   an interrupt also asks the result to stop (and nothing else does) *)
Lemma cut_is_error p :
  completed p = false ->
  o_events (model p) = [StartTest; AddError; StopTest]
  /\ (o_stop (model p) = true <-> cut_kind p = KInterrupt).
Proof.
  intro Cf. destruct (model_verdict p) as (c & -> & Hc & ->).
  rewrite Cf, (Hc Cf). split; [reflexivity|].
  unfold stop_flag. destruct (cut_kind p); split; simpl; congruence.
Qed.

(* every cleanup ran when nothing cut the run short *)
Lemma cleanups_all_run p :
  completed p = true ->
  o_cleanups_left (model p) = 0
  /\ map fst (o_log (model p)) = map fst (plan p).
Proof.
  intro Ct. unfold model. cbn [o_cleanups_left o_log].
  destruct (run_cases p) as [(m & _ & _ & G & _ & ->) | (m1 & n1 & Cf & _)]; [|congruence].
  cbn [finish r_cleanups_left r_log]. rewrite settle_log. split; [reflexivity | apply (go_ids _ _ _ _ _ G)].
Qed.

Theorem model_meets_spec p : spec_okb p (model p) = true.
Proof.
  apply spec_okb_iff. unfold Spec.
  split; [apply model_log|].
  split; [apply one_outcome_holds|].
  split; [apply success_iff|].
  split; [apply cut_is_error|].
  split; [apply model_pending | apply model_observers].
Qed.

Lemma walk_cons C t pl k u l : Walk C t pl ((k, u) :: l) ->
  exists st r, pl = (k, st) :: r /\ u = t
    /\ (l = [] \/ exists t', ((completes t st = Immediately /\ t' = t) \/ (completes t st = At t' /\ t' <= C))
                             /\ Walk C t' r l).
Proof.
  intro W.
  inversion W as [ | ? ? st ? ? Hc Hw | ? ? st ? ? u1 Hc Hu Hw | ? ? st ? u2 Hc Hu | ? ? st ? Hc]; subst.
  - exists st, r. split; [reflexivity|]. split; [reflexivity|]. right. exists u.
    split; [left; split; [exact Hc | reflexivity] | exact Hw].
  - exists st, r. split; [reflexivity|]. split; [reflexivity|]. right. exists u1.
    split; [right; split; [exact Hc | exact Hu] | exact Hw].
  - exists st, r. split; [reflexivity|]. split; [reflexivity|]. left. reflexivity.
  - exists st, r. split; [reflexivity|]. split; [reflexivity|]. left. reflexivity.
Qed.

(* the stages that ran are an initial segment of the plan *)
Lemma walk_prefix C : forall l t pl, Walk C t pl l -> exists rest, map fst pl = map fst l ++ rest.
Proof.
  induction l as [|[k u] l IH]; intros t pl W; [eexists; reflexivity|].
  apply walk_cons in W as (st & r & -> & _ & [->|(t' & _ & W)]); [eexists; reflexivity|].
  destruct (IH _ _ W) as [rest E]. exists rest. cbn [map fst app]. rewrite E. reflexivity.
Qed.

(* two consecutive entries: the later stage started at exactly the instant at which the earlier one completed *)
Lemma walk_adjacent C : forall l1 t pl k1 t1 k2 t2 l2, Walk C t pl (l1 ++ (k1, t1) :: (k2, t2) :: l2) ->
  exists st1, In (k1, st1) pl
              /\ ((completes t1 st1 = Immediately /\ t2 = t1) \/ (completes t1 st1 = At t2 /\ t2 <= C)).
Proof.
  induction l1 as [|[k u] l1 IH]; intros t pl k1 t1 k2 t2 l2 W; cbn [app] in W;
    apply walk_cons in W as (st & r & -> & -> & [E|(t' & Hc & W)]).
  - discriminate E.
  - apply walk_cons in W as (_ & _ & _ & -> & _). exists st. split; [left; reflexivity | exact Hc].
  - destruct l1; discriminate E.
  - destruct (IH _ _ _ _ _ _ _ W) as [st1 [Hin Hx]]. exists st1. split; [right; exact Hin | exact Hx].
Qed.

Lemma number_from_ids l : forall k, map fst (number_from k l) = map id_cleanup (seq k (length l)).
Proof. induction l as [|s r IH]; intro k; simpl; [reflexivity | rewrite IH; reflexivity]. Qed.

(* what a walk says, in words: the stages that ran are an initial segment of the plan; the first started at t;
   each further one started when its predecessor completed *)
Lemma walk_words C t pl l : Walk C t pl l ->
  (exists rest, map fst pl = map fst l ++ rest)
  /\ (forall k u l', l = (k, u) :: l' -> u = t /\ exists st r, pl = (k, st) :: r)
  /\ (forall l1 k1 t1 k2 t2 l2, l = l1 ++ (k1, t1) :: (k2, t2) :: l2 ->
      exists st1, In (k1, st1) pl
                  /\ ((completes t1 st1 = Immediately /\ t2 = t1) \/ (completes t1 st1 = At t2 /\ t2 <= C))).
Proof.
  intro W. split; [apply (walk_prefix _ _ _ _ W)|]. split.
  - intros k u l' E. rewrite E in W. apply walk_cons in W as (st & r & Ep & Eu & _). eauto.
  - intros l1 k1 t1 k2 t2 l2 E. rewrite E in W. apply (walk_adjacent _ _ _ _ _ _ _ _ _ W).
Qed.

(* setUp, then the test and tearDown unless setUp failed, then the cleanups: last registered first *)
Lemma plan_ids p :
  map fst (plan p) =
  id_setup :: (if stage_raises (i_setup p) then [] else [id_body; id_teardown])
  ++ rev (map id_cleanup (seq 0 (length (i_cleanups p)))).
Proof.
  unfold plan. cbn [map fst]. rewrite map_app, map_rev, number_from_ids.
  destruct (stage_raises (i_setup p)); reflexivity.
Qed.

(* a Deferred that is due exactly at the cut instant has lost: the run did not complete, whatever the reactor
   still runs afterwards *)
Lemma tie_loses p pl1 L tk k st r :
  plan p = pl1 ++ (k, st) :: r -> Go (cut_instant p) 0 pl1 L tk -> completes tk st = At (cut_instant p) ->
  completed p = false.
Proof.
  intros E G Ec. unfold completed. rewrite E, (go_expected _ _ _ _ _ _ G). cbn [expected_log].
  unfold fires_at. rewrite Ec, Nat.ltb_irrefl. reflexivity.
Qed.

Lemma tab_iterations_le : runner_iterations <= broken_runner_iterations.
Proof. vm_compute. repeat constructor. Qed.
Lemma tab_plain_is_spinner_default : runner_iterations = spinner_iterations.
Proof. vm_compute. reflexivity. Qed.

Lemma no_leftovers_unrun p : no_leftovers p -> o_unrun (model p) = 0.
Proof.
  intro N. unfold model. cbn [o_unrun].
  destruct (run_cases p) as [(m & _ & _ & _ & P & ->) | (m1 & n1 & _ & _ & P & ->)]; cbn [finish r_unrun]; unfold junk_of.
  - rewrite (settle_nopend _ _ (P N)). reflexivity.
  - cbn [note_cut m_pending]. rewrite (P N). reflexivity.
Qed.

(* then success is decided by the program text and the timing alone *)
Lemma success_iff_no_leftovers p :
  no_leftovers p ->
  (In AddSuccess (o_events (model p)) <-> completed p = true /\ all_clean p = true).
Proof.
  intro N. rewrite success_iff, (no_leftovers_unrun p N). tauto.
Qed.
