(* Behind Props/C11.v: the imperative model (references into a store) observes at every call exactly what the
   statement's per-sink function says ([model_steps]); [deliver_ok] is the induction on the decorator tree, with
   [TagCorr] linking a reference in the store to the value-level tag state of the statement. *)
From TT Require Import Lib.Base Lib.ListFacts Model.Router Model.StreamDecor Gen.Failfast Spec.C11 Corr.C11 Lib.EqbFacts Proof.Stepwise.

Lemma tsobj_eqb_spec a b : tsobj_eqb a b = true <-> a = b.
Proof. destruct a, b; simpl; eqb_components ltac:(apply Nat.eqb_eq). Qed.
Lemma tsv_eqb_spec a b : tsv_eqb a b = true <-> a = b.
Proof. destruct a, b; simpl; eqb_components ltac:(apply tsobj_eqb_spec). Qed.
Lemma store_eqb_spec a b : store_eqb a b = true <-> a = b.
Proof. apply list_eqb_spec. exact nats_eqb_spec. Qed.

Lemma oevent_eqb_spec a b : oevent_eqb a b = true <-> a = b.
Proof.
  destruct a, b. unfold oevent_eqb, onat_eqb, olnat_eqb, lnat_eqb; simpl.
  eqb_components ltac:(first [apply onat_eqb_spec | apply (option_eqb_spec _ nats_eqb_spec) | apply bool_eqb_spec
                             | apply tsv_eqb_spec]).
Qed.

Lemma entry_eqb_spec a b : entry_eqb a b = true <-> a = b.
Proof. destruct a, b; simpl; eqb_components ltac:(apply oevent_eqb_spec). Qed.

Lemma news_eqb_spec a b : list_eqb (list_eqb entry_eqb) a b = true <-> a = b.
Proof. apply list_eqb_spec. apply list_eqb_spec. exact entry_eqb_spec. Qed.

Lemma step_obs_eqb_spec a b : step_obs_eqb a b = true <-> a = b.
Proof.
  destruct a, b. unfold step_obs_eqb; simpl.
  eqb_components ltac:(first [apply bool_eqb_spec | apply news_eqb_spec | apply store_eqb_spec]).
Qed.

Section node_ind'.
  Variable P : node -> Prop.
  Hypothesis HS : P Sink.
  Hypothesis HF : P FailFast.
  Hypothesis HC : forall ts, Forall P ts -> P (Copy ts).
  Hypothesis HT : forall a d ts, Forall P ts -> P (Tagger a d ts).
  Hypothesis HZ : forall t, P t -> P (Stamp t).
  Hypothesis HQ : forall c t, P t -> P (ToQueue c t).
  Fixpoint node_ind' (n : node) : P n :=
    let fix go (l : list node) : Forall P l :=
      match l with [] => Forall_nil _ | x :: r => Forall_cons x (node_ind' x) (go r) end in
    match n with
    | Sink => HS | FailFast => HF
    | Copy ts => HC ts (go ts)
    | Tagger a d ts => HT a d ts (go ts)
    | Stamp t => HZ t (node_ind' t)
    | ToQueue c t => HQ c t (node_ind' t)
    end.
End node_ind'.

Lemma mem_filter t p l : mem t (filter p l) = p t && mem t l.
Proof.
  induction l as [|x r IH]; simpl; [rewrite andb_false_r; reflexivity|].
  destruct (Nat.eqb t x) eqn:E.
  - apply Nat.eqb_eq in E. subst x. destruct (p t); simpl; rewrite ?IH, ?Nat.eqb_refl; reflexivity.
  - destruct (p x); simpl; rewrite ?E, IH; reflexivity.
Qed.

Lemma mem_In t l : mem t l = true <-> In t l.
Proof.
  induction l as [|x r IH]; simpl; [split; [discriminate|intros []]|].
  rewrite orb_true_iff, Nat.eqb_eq, IH. split; intros [H|H]; auto.
Qed.

Lemma mem_canon t p : mem t (canon p) = p t && Nat.ltb t tag_universe.
Proof.
  unfold canon. rewrite mem_filter. f_equal.
  destruct (Nat.ltb t tag_universe) eqn:E.
  - apply mem_In. apply in_seq. apply Nat.ltb_lt in E. lia.
  - destruct (mem t (seq 0 tag_universe)) eqn:M; [|reflexivity].
    apply mem_In in M. apply in_seq in M. apply Nat.ltb_ge in E. lia.
Qed.

Lemma canon_ext p q : (forall t, t < tag_universe -> p t = q t) -> canon p = canon q.
Proof.
  intro H. unfold canon. apply filter_ext_in.
  intros t Ht. apply in_seq in Ht. apply H. lia.
Qed.

(* "tags added and discarded": the model's one pass equals union then difference *)
Lemma tagged_value_spec a d v : tagged_value a d v = set_diff (set_union v a) d.
Proof.
  unfold tagged_value, set_diff, set_union. apply canon_ext. intros t Ht.
  rewrite mem_canon. apply Nat.ltb_lt in Ht. rewrite Ht, andb_true_r. reflexivity.
Qed.

Definition signal_at (r : rentry) (pk : path * leafkind) : list rentry :=
  match snd pk with LSink => [r] | LFail => [] end.

Lemma flat_map_signal r ts :
  Forall (fun n => signal n r = map (signal_at r) (leaves n)) ts ->
  flat_map (fun t => signal t r) ts = map (signal_at r) (flat_map leaves ts).
Proof.
  induction 1 as [|t ts Ht _ IH]; simpl; [reflexivity|]. rewrite map_app, Ht, IH. reflexivity.
Qed.

Lemma signal_spec r n : signal n r = map (signal_at r) (leaves n).
Proof.
  induction n as [| |ts IH|a d ts IH|t IH|c t IH] using node_ind'; simpl; try reflexivity.
  - rewrite map_map. simpl. apply flat_map_signal. exact IH.
  - rewrite map_map. simpl. apply flat_map_signal. exact IH.
  - rewrite map_map. exact IH.
  - rewrite map_map. exact IH.
Qed.

Lemma nth_firstn_lt {A} (d : A) : forall n l k, k < n -> nth k (firstn n l) d = nth k l d.
Proof.
  induction n as [|n IH]; intros l k Hk; [lia|]. destruct l as [|x l]; simpl; [destruct k; reflexivity|].
  destruct k as [|k]; [reflexivity|]. apply IH. lia.
Qed.

Lemma firstn_app_le {A} n (l ext : list A) : n <= length l -> firstn n (l ++ ext) = firstn n l.
Proof.
  intro H. rewrite firstn_app. replace (n - length l) with 0 by lia. simpl. apply app_nil_r.
Qed.

Lemma length_set_nth {A} (v : A) : forall st l, length (set_nth l v st) = length st.
Proof. induction st as [|x r IH]; intros [|l]; simpl; try reflexivity. rewrite IH. reflexivity. Qed.

Lemma nth_set_nth_neq {A} (v d : A) : forall st l k, k <> l -> nth k (set_nth l v st) d = nth k st d.
Proof.
  induction st as [|x r IH]; intros [|l] [|k] H; simpl; try reflexivity; try lia.
  apply IH. lia.
Qed.

Lemma firstn_set_nth {A} (v : A) : forall n st l, firstn n (set_nth l v st) = set_nth l v (firstn n st).
Proof.
  induction n as [|n IH]; intros [|x r] [|l]; simpl; try reflexivity. rewrite IH. reflexivity.
Qed.

(* nc: how many cells the caller owns *)
Inductive TagCorr (nc : nat) (st : store) : tagref -> tagstate -> Prop :=
| TC_orig r : ref_okb nc r = true -> TagCorr nc st r (Orig r)
| TC_none : TagCorr nc st TNone (Fresh [])
| TC_loc l v : v <> [] -> nc <= l -> l < length st -> nth l st [] = v -> TagCorr nc st (TLoc l) (Fresh v).

Lemma TagCorr_ext nc st ext r x : TagCorr nc st r x -> TagCorr nc (st ++ ext) r x.
Proof.
  intros [r0 H| |l v Hv H1 H2 H3]; constructor; try assumption.
  - rewrite app_length. lia.
  - rewrite app_nth1 by exact H2. exact H3.
Qed.

Definition state_value (now : store) (x : tagstate) : list tag :=
  match x with Orig r => tags_or_empty now r | Fresh v => v end.

Lemma TagCorr_value nc st now r x :
  firstn nc st = now -> TagCorr nc st r x -> tags_or_empty st r = state_value now x.
Proof.
  unfold state_value. intros Hnow [r0 H| |l v Hv H1 H2 H3]; try reflexivity.
  - destruct r0 as [|v|l]; try reflexivity. simpl in H. apply Nat.ltb_lt in H.
    unfold tags_or_empty. simpl. rewrite <- Hnow, nth_firstn_lt by exact H. reflexivity.
  - unfold tags_or_empty. simpl. exact H3.
Qed.

Definition rebuild (e : event tagref) (r : tagref) (rt : route) (ts : tsv) : event tagref :=
  Evt (v_id e) (v_status e) r (v_runnable e) (v_file e) (v_bytes e) (v_eof e) (v_mime e) rt ts.

Definition ts_step (t : tsv) (s : pstep) : tsv := if is_stamp s then fill t else t.

(* what a leaf below the (relative) path p logs when e arrives at the top of p with tag state x *)
Definition LeafOut (nc : nat) (now st : store) (e : event tagref) (x : tagstate)
           (pk : path * leafkind) (out : list rentry) : Prop :=
  match snd pk with
  | LSink => exists r, out = [RSt (rebuild e r (fold_left route_step (fst pk) (v_route e))
                                          (fold_left ts_step (fst pk) (v_ts e)))]
                       /\ TagCorr nc st r (fold_left (tag_step now) (fst pk) x)
  | LFail => out = if fires (v_status e) then [RFired] else []
  end.

Lemma LeafOut_ext nc now st ext e x pk out : LeafOut nc now st e x pk out -> LeafOut nc now (st ++ ext) e x pk out.
Proof.
  unfold LeafOut. destruct (snd pk); [|auto]. intros [r [H1 H2]].
  exists r. split; [exact H1|].
  apply TagCorr_ext. exact H2.
Qed.

(* a status call only allocates cells: no decorator writes into the store it is handed *)
Lemma deliver_list_appends ts :
  Forall (fun n => forall e st, exists ext, snd (deliver n e st) = st ++ ext) ts ->
  forall e st, exists ext, snd (deliver_list deliver ts e st) = st ++ ext.
Proof.
  induction 1 as [|t ts Ht _ IH]; intros e st; simpl.
  - exists []. rewrite app_nil_r. reflexivity.
  - destruct (Ht e st) as [ext1 E1]. destruct (deliver t e st) as [o1 st1]. simpl in E1. subst st1.
    destruct (IH e (st ++ ext1)) as [ext2 E2].
    destruct (deliver_list deliver ts e (st ++ ext1)) as [o2 st2]. simpl in E2. subst st2.
    exists (ext1 ++ ext2). simpl. rewrite app_assoc. reflexivity.
Qed.

Lemma deliver_appends n : forall e st, exists ext, snd (deliver n e st) = st ++ ext.
Proof.
  induction n as [| |ts IH|a d ts IH|t IH|c t IH] using node_ind'; intros e st; simpl.
  - exists []. rewrite app_nil_r. reflexivity.
  - exists []. rewrite app_nil_r. reflexivity.
  - apply deliver_list_appends. exact IH.
  - match goal with |- context [deliver_list deliver ts ?e1 ?st1] =>
      destruct (deliver_list_appends ts IH e1 st1) as [ext E] end.
    eexists. rewrite E, <- app_assoc. reflexivity.
  - apply IH.
  - apply IH.
Qed.

Lemma deliver_list_appends_all ts e st : exists ext, snd (deliver_list deliver ts e st) = st ++ ext.
Proof. apply deliver_list_appends, Forall_forall. intros n _. apply deliver_appends. Qed.

Definition Delivers nc now (lvs : list (path * leafkind))
           (run : event tagref -> store -> list (list rentry) * store) : Prop :=
  forall e st x, firstn nc st = now -> nc <= length st -> TagCorr nc st (v_tags e) x ->
    Forall2 (LeafOut nc now (snd (run e st)) e x) lvs (fst (run e st)).

(* the targets of a copying decorator, one after the other, on a growing store: what an earlier target logged
   is still right in the later store, which only has more cells *)
Lemma deliver_list_ok nc now ts :
  Forall (fun n => Delivers nc now (leaves n) (deliver n)) ts ->
  Delivers nc now (flat_map leaves ts) (deliver_list deliver ts).
Proof.
  induction 1 as [|t ts Ht _ IH]; intros e st x Hnow Hnc HT; simpl; [constructor|].
  pose proof (Ht e st x Hnow Hnc HT) as F1.
  destruct (deliver_appends t e st) as [ext1 E1].
  destruct (deliver t e st) as [o1 st1]. simpl in E1, F1. subst st1.
  assert (F2 : Forall2 (LeafOut nc now (snd (deliver_list deliver ts e (st ++ ext1))) e x) (flat_map leaves ts)
                       (fst (deliver_list deliver ts e (st ++ ext1)))).
  { apply IH; [rewrite firstn_app_le by exact Hnc; exact Hnow | rewrite app_length; lia | apply TagCorr_ext; exact HT]. }
  destruct (deliver_list_appends_all ts e (st ++ ext1)) as [ext2 E2].
  destruct (deliver_list deliver ts e (st ++ ext1)) as [o2 st2]. simpl in E2, F2 |- *. subst st2.
  apply Forall2_app; [|exact F2].
  eapply Forall2_impl; [|exact F1]. intros pk out. apply LeafOut_ext.
Qed.

Theorem deliver_ok nc now n : Delivers nc now (leaves n) (deliver n).
Proof.
  induction n as [| |ts IH|a d ts IH|t IH|c t IH] using node_ind'; intros e st x Hnow Hnc HT.
  - constructor; [|constructor].
    unfold LeafOut. simpl. exists (v_tags e). split; [destruct e; reflexivity | exact HT].
  - constructor; [|constructor]. reflexivity.
  - simpl. apply Forall2_map_l. exact (deliver_list_ok nc now ts IH e st x Hnow Hnc HT).
  - (* StreamTagger: the new set goes into a new cell; below, the tag state is Fresh *)
    simpl deliver. set (v := tagged_value a d (tags_or_empty st (v_tags e))).
    set (e1 := with_tags e (match v with [] => TNone | _ => TLoc (length st) end)).
    assert (Hv : tag_step now x (PTag a d) = Fresh v).
    { simpl. f_equal. unfold v.
      rewrite tagged_value_spec, (TagCorr_value nc st now _ x Hnow HT). reflexivity. }
    assert (F : Forall2 (LeafOut nc now (snd (deliver_list deliver ts e1 (st ++ [v]))) e1 (Fresh v)) (flat_map leaves ts)
                        (fst (deliver_list deliver ts e1 (st ++ [v])))).
    { apply (deliver_list_ok nc now ts IH).
      - rewrite firstn_app_le by exact Hnc. exact Hnow.
      - rewrite app_length. lia.
      - unfold e1. simpl. destruct v as [|t0 v0] eqn:Ev; [constructor|].
        constructor; [discriminate | exact Hnc | rewrite app_length; simpl; lia | apply nth_middle]. }
    apply Forall2_map_l. eapply Forall2_impl; [|exact F].
    intros [p k] out. unfold LeafOut, under. cbn [fst snd].
    change (fold_left (tag_step now) (PTag a d :: p) x)
      with (fold_left (tag_step now) p (tag_step now x (PTag a d))).
    rewrite Hv. destruct k; exact (fun H => H).
  - simpl deliver. simpl leaves. apply Forall2_map_l.
    eapply Forall2_impl; [|exact (IH (with_ts e (stamp (v_ts e))) st x Hnow Hnc HT)].
    intros [p k] out. unfold LeafOut, under. cbn [fst snd].
    change (fold_left ts_step (PStamp :: p) (v_ts e)) with (fold_left ts_step p (fill (v_ts e))).
    replace (fill (v_ts e)) with (stamp (v_ts e)) by (destruct (v_ts e); reflexivity).
    destruct k; exact (fun H => H).
  - simpl deliver. simpl leaves. apply Forall2_map_l.
    eapply Forall2_impl; [|exact (IH (with_route e (route_code_opt c (v_route e))) st x Hnow Hnc HT)].
    intros [p k] out. unfold LeafOut, under. cbn [fst snd]. destruct k; exact (fun H => H).
Qed.

Theorem calls_only_allocate n o st : (forall l v, o <> OMutate l v) -> exists ext, snd (step n o st) = st ++ ext.
Proof.
  intro H. destruct o as [| |e|l v]; simpl.
  - exists []. rewrite app_nil_r. reflexivity.
  - exists []. rewrite app_nil_r. reflexivity.
  - apply deliver_appends.
  - exfalso. exact (H l v eq_refl).
Qed.

Definition Ext (nc : nat) (st st2 : store) : Prop :=
  length st <= length st2 /\ forall l, nc <= l -> l < length st -> nth l st2 [] = nth l st [].

Lemma Ext_refl nc st : Ext nc st st.
Proof. split; [lia | reflexivity]. Qed.

Lemma Ext_trans nc a b c : Ext nc a b -> Ext nc b c -> Ext nc a c.
Proof.
  intros [L1 H1] [L2 H2]. split; [lia|]. intros l Hl Hl'.
  rewrite H2 by lia. apply H1; lia.
Qed.

Lemma Ext_app nc st ext : Ext nc st (st ++ ext).
Proof. split; [rewrite app_length; lia|]. intros l _ Hl. apply app_nth1. exact Hl. Qed.

Lemma step_Ext nc n o st : op_okb nc o = true -> Ext nc st (snd (step n o st)).
Proof.
  intro Hok. destruct o as [| |e|l v]; simpl; try apply Ext_refl.
  - destruct (deliver_appends n e st) as [ext E]. rewrite E. apply Ext_app.
  - simpl in Hok. apply Nat.ltb_lt in Hok. split; [rewrite length_set_nth; lia|].
    intros k Hk _. apply nth_set_nth_neq. lia.
Qed.

Lemma step_caller nc n o st : nc <= length st ->
  firstn nc (snd (step n o st)) = caller_step (firstn nc st) o.
Proof.
  intro Hnc. destruct o as [| |e|l v]; simpl; try reflexivity.
  - destruct (deliver_appends n e st) as [ext E]. rewrite E. apply firstn_app_le. exact Hnc.
  - apply firstn_set_nth.
Qed.

Lemma final_store_cons n o l st : final_store n (o :: l) st = final_store n l (snd (step n o st)).
Proof.
  unfold final_store. simpl. destruct (step n o st) as [out st'] eqn:E. simpl.
  destruct (run n l st') as [|x r] eqn:R; [reflexivity|].
  change (map snd (x :: r)) with (snd x :: map snd r). rewrite !last_cons. reflexivity.
Qed.

Lemma final_Ext nc n : forall l st, forallb (op_okb nc) l = true -> Ext nc st (final_store n l st).
Proof.
  induction l as [|o l IH]; intros st H.
  - apply Ext_refl.
  - simpl in H. apply andb_true_iff in H as [H1 H2]. rewrite final_store_cons.
    eapply Ext_trans; [apply step_Ext; exact H1 | apply IH; exact H2].
Qed.

Lemma final_caller nc n : forall l st, nc <= length st ->
  firstn nc (final_store n l st) = caller_after (firstn nc st) l.
Proof.
  induction l as [|o l IH]; intros st Hnc; [reflexivity|].
  rewrite final_store_cons, IH.
  - rewrite step_caller by exact Hnc. reflexivity.
  - destruct o as [| |e|k v]; simpl; try exact Hnc.
    + destruct (deliver_appends n e st) as [ext E]. rewrite E, app_length. lia.
    + rewrite length_set_nth. exact Hnc.
Qed.

Theorem failfast_table : forall s, fires s = is_failure s.
Proof.
  intro s. destruct s as [k|]; [|reflexivity]. unfold fires, is_failure, failfast_statuses, st_fail, st_uxsuccess. simpl.
  (* both sides are a disjunction of the same two tests, in the other order *)
  destruct (Nat.eqb k 3), (Nat.eqb k 5); reflexivity.
Qed.

Lemma resolve_tag nc st CUR FIN now r x :
  TagCorr nc st r x -> Ext nc st FIN -> firstn nc CUR = now ->
  deref (if own nc r then CUR else FIN) r = tag_finish now x.
Proof.
  intros [r0 H| |l v Hv H1 H2 H3] [_ HE] Hnow.
  - destruct r0 as [|v|l]; try reflexivity. unfold ref_okb in H. unfold own. rewrite H.
    apply Nat.ltb_lt in H. simpl. rewrite <- Hnow, nth_firstn_lt by exact H. reflexivity.
  - reflexivity.
  - unfold own. replace (Nat.ltb l nc) with false by (symmetry; apply Nat.ltb_ge; exact H1).
    simpl. rewrite HE by assumption. rewrite H3. destruct v; [exfalso; apply Hv; reflexivity | reflexivity].
Qed.

Lemma ts_fold p : forall t, fold_left ts_step p t = if existsb is_stamp p then fill t else t.
Proof.
  induction p as [|s p IH]; intro t; simpl; [reflexivity|]. rewrite IH. unfold ts_step.
  destruct (is_stamp s); simpl; [|reflexivity].
  destruct (existsb is_stamp p); [destruct t; reflexivity | reflexivity].
Qed.

Lemma leaf_resolved nc now st CUR FIN e pk out :
  LeafOut nc now st e (Orig (v_tags e)) pk out -> Ext nc st FIN -> firstn nc CUR = now ->
  map (resolve nc CUR FIN) out = expect_new now (OStatus e) pk.
Proof.
  destruct pk as [p k]. unfold LeafOut, expect_new. simpl. destruct k.
  - intros [r [-> HT]] HE Hnow. simpl. unfold expect_event, with_tags, rebuild. simpl.
    rewrite (resolve_tag nc st CUR FIN now r _ HT HE Hnow), ts_fold. reflexivity.
  - intros -> _ _. rewrite failfast_table. destruct (is_failure (v_status e)); reflexivity.
Qed.

Lemma step_new_ok nc now FIN n o st :
  firstn nc st = now -> nc <= length st -> op_okb nc o = true ->
  Ext nc (snd (step n o st)) FIN ->
  map (map (resolve nc (snd (step n o st)) FIN)) (fst (step n o st)) = map (expect_new now o) (leaves n).
Proof.
  intros Hnow Hnc Hok HE. destruct o as [| |e|l v]; simpl fst.
  - rewrite signal_spec, map_map. apply map_ext. intros [p []]; reflexivity.
  - rewrite signal_spec, map_map. apply map_ext. intros [p []]; reflexivity.
  - assert (F : Forall2 (LeafOut nc now (snd (deliver n e st)) e (Orig (v_tags e))) (leaves n) (fst (deliver n e st))).
    { apply (deliver_ok nc now n e st _ Hnow Hnc). constructor.
      simpl in Hok. apply andb_true_iff in Hok as [Hok _]. exact Hok. }
    destruct (deliver_appends n e st) as [ext E].
    simpl in HE. simpl snd. symmetry.
    apply Forall2_map_eq. eapply Forall2_impl; [|exact F].
    intros pk out HL. symmetry. eapply leaf_resolved; [exact HL | exact HE |].
    rewrite E, firstn_app_le by exact Hnc. exact Hnow.
  - unfold quiet. rewrite signal_spec, !map_map. apply map_ext. intros [p []]; reflexivity.
Qed.

Definition expected_obs (i : input) (past : list op) (o : op) : step_obs :=
  let now := caller_after (caller i) past in
  {| s_raised := false; s_new := map (expect_new now o) (leaves (tree i)); s_caller := caller_step now o |}.

Lemma run_trace i FIN :
  forall l past st,
    forallb (op_okb (length (caller i))) l = true ->
    firstn (length (caller i)) st = caller_after (caller i) past ->
    length (caller i) <= length st ->
    final_store (tree i) l st = FIN ->
    map (to_obs (length (caller i)) FIN) (run (tree i) l st) = trace (expected_obs i) past l.
Proof.
  induction l as [|o l IH]; intros past st Hok Hnow Hnc HF; [reflexivity|].
  simpl in Hok. apply andb_true_iff in Hok as [Ho Hl].
  rewrite final_store_cons in HF.
  pose proof (step_new_ok _ _ FIN (tree i) o st Hnow Hnc Ho) as Hnew.
  pose proof (step_caller (length (caller i)) (tree i) o st Hnc) as Hcal.
  pose proof (step_Ext (length (caller i)) (tree i) o st Ho) as [HL _].
  pose proof (final_Ext (length (caller i)) (tree i) l (snd (step (tree i) o st)) Hl) as HE.
  rewrite HF in HE. specialize (Hnew HE).
  simpl run. destruct (step (tree i) o st) as [out st'] eqn:Es. simpl in *. f_equal.
  - unfold to_obs, expected_obs. simpl. rewrite Hnew, Hcal, Hnow. reflexivity.
  - apply IH; [exact Hl | | lia | exact HF].
    rewrite Hcal, Hnow. unfold caller_after. rewrite fold_left_app. reflexivity.
Qed.

Lemma model_steps i : wf i -> o_steps (model i) = trace (expected_obs i) [] (ops i).
Proof.
  intro Hwf. unfold model. simpl.
  apply (run_trace i (final_store (tree i) (ops i) (caller i))); [exact Hwf | apply firstn_all | lia | reflexivity].
Qed.

Lemma step_okb_spec i past o so : step_okb i past o so = true <-> Step_spec i past o so.
Proof.
  unfold step_okb, Step_spec. rewrite !andb_true_iff, negb_true_iff, news_eqb_spec, store_eqb_spec. tauto.
Qed.

Lemma model_step i k o so : wf i ->
  nth_error (ops i) k = Some o -> nth_error (o_steps (model i)) k = Some so ->
  so = expected_obs i (firstn k (ops i)) o.
Proof. intro Hwf. rewrite (model_steps i Hwf). apply (trace_nth_inv (expected_obs i) []). Qed.

Theorem once_in_order i : wf i -> forall k o so j pk,
  nth_error (ops i) k = Some o -> nth_error (o_steps (model i)) k = Some so ->
  nth_error (leaves (tree i)) j = Some pk ->
  let now := caller_after (caller i) (firstn k (ops i)) in
  nth_error (s_new so) j = Some (expect_new now o pk)
  /\ (snd pk = LSink -> (forall l v, o <> OMutate l v) -> length (expect_new now o pk) = 1).
Proof.
  intros Hwf k o so j pk Ho Hso Hpk now. rewrite (model_step i k o so Hwf Ho Hso).
  split.
  - simpl. fold now. rewrite nth_error_map, Hpk. reflexivity.
  - intros Hk Hm. unfold expect_new. rewrite Hk. destruct o as [| |e|l v]; try reflexivity.
    exfalso. exact (Hm l v eq_refl).
Qed.

Theorem independent i1 i2 : wf i1 -> wf i2 -> caller i1 = caller i2 -> ops i1 = ops i2 ->
  forall j1 j2 pk, nth_error (leaves (tree i1)) j1 = Some pk -> nth_error (leaves (tree i2)) j2 = Some pk ->
  forall k so1 so2, nth_error (o_steps (model i1)) k = Some so1 -> nth_error (o_steps (model i2)) k = Some so2 ->
    nth_error (s_new so1) j1 = nth_error (s_new so2) j2.
Proof.
  intros W1 W2 Ec Eo j1 j2 pk H1 H2 k so1 so2 S1 S2.
  assert (Hk : k < length (ops i1)).
  { rewrite <- (trace_length (expected_obs i1) (ops i1) []), <- (model_steps i1 W1).
    apply nth_error_Some. rewrite S1. discriminate. }
  destruct (nth_error_lt _ _ Hk) as [o Ho].
  destruct (once_in_order i1 W1 k o so1 j1 pk Ho S1 H1) as [R1 _].
  rewrite Eo in Ho. destruct (once_in_order i2 W2 k o so2 j2 pk Ho S2 H2) as [R2 _].
  rewrite R1, R2, Ec, Eo. reflexivity.
Qed.

Definition queue_codes (p : path) : list seg := flat_map (fun s => match s with PQueue (Some c) => [c] | _ => [] end) p.
Definition taggers (p : path) : list (list tag * list tag) :=
  flat_map (fun s => match s with PTag a d => [(a, d)] | _ => [] end) p.
Definition member_after (tg : list (list tag * list tag)) (t : tag) (b : bool) : bool :=
  fold_left (fun b ad => (b || mem t (fst ad)) && negb (mem t (snd ad))) tg b.

Lemma route_fold p : forall r, fold_left route_step p r = push_all (queue_codes p) r.
Proof.
  unfold push_all. induction p as [|s p IH]; intro r; simpl; [reflexivity|].
  rewrite IH. destruct s as [| | |[c|]]; simpl; reflexivity.
Qed.

Definition has_code (s : pstep) : bool := match s with PQueue (Some _) => true | _ => false end.
Lemma no_code_transparent now p e :
  existsb has_code p = false -> v_route (expect_event now p e) = v_route e.
Proof.
  intro H. unfold expect_event. simpl. rewrite route_fold.
  assert (Q : queue_codes p = []).
  { induction p as [|s p IH]; [reflexivity|]. simpl in H. apply orb_false_iff in H. destruct H as [Hs Hp].
    unfold queue_codes. simpl. fold (queue_codes p). rewrite (IH Hp).
    destruct s as [| | |[c|]]; simpl in *; try reflexivity. discriminate. }
  rewrite Q. reflexivity.
Qed.

Lemma tag_fold_notag now p : forall x, taggers p = [] -> fold_left (tag_step now) p x = x.
Proof.
  induction p as [|s p IH]; intros x H; simpl; [reflexivity|].
  destruct s; simpl in *; try (apply IH; exact H). discriminate.
Qed.

Lemma mem_tag_step now x a d t : t < tag_universe ->
  mem t (state_value now (tag_step now x (PTag a d))) = (mem t (state_value now x) || mem t a) && negb (mem t d).
Proof.
  intro Ht. simpl. unfold set_diff, set_union. rewrite !mem_canon.
  apply Nat.ltb_lt in Ht. rewrite Ht, !andb_true_r. reflexivity.
Qed.

Lemma tag_fold_mem now t : t < tag_universe -> forall p x,
  mem t (state_value now (fold_left (tag_step now) p x)) = member_after (taggers p) t (mem t (state_value now x)).
Proof.
  intro Ht. induction p as [|s p IH]; intro x; [reflexivity|].
  simpl fold_left. rewrite IH. destruct s; try reflexivity.
  simpl taggers. unfold member_after.
  simpl fold_left. f_equal. apply mem_tag_step. exact Ht.
Qed.

Lemma tag_fold_fresh now p : forall x, taggers p <> [] -> exists v, fold_left (tag_step now) p x = Fresh v.
Proof.
  induction p as [|s p IH]; intros x H; [exfalso; apply H; reflexivity|].
  simpl fold_left. destruct s; simpl in H; try (apply IH; exact H).
  destruct (taggers p) eqn:E.
  - rewrite (tag_fold_notag now p _ E). simpl. eexists; reflexivity.
  - apply IH. discriminate.
Qed.

Lemma in_canon t p : In t (canon p) -> t < tag_universe.
Proof.
  unfold canon. intro H. apply filter_In in H as [H _]. apply in_seq in H. lia.
Qed.

Lemma taggers_snoc p s : taggers (p ++ [s]) = taggers p ++ match s with PTag a d => [(a, d)] | _ => [] end.
Proof. unfold taggers. rewrite flat_map_app. simpl. rewrite app_nil_r. reflexivity. Qed.

Lemma tag_fold_small now p : forall x, taggers p <> [] ->
  forall t, In t (state_value now (fold_left (tag_step now) p x)) -> t < tag_universe.
Proof.
  induction p as [|s p IH] using rev_ind; intros x H t; [exfalso; apply H; reflexivity|].
  rewrite fold_left_app. simpl. rewrite taggers_snoc in H.
  (* a last stage that is not a Tagger leaves the value as the stages before it made it;
     a Tagger computes a set_diff, which is canonical *)
  destruct s as [|a d| |c]; simpl.
  - apply IH. rewrite app_nil_r in H. exact H.
  - unfold set_diff. apply in_canon.
  - apply IH. rewrite app_nil_r in H. exact H.
  - apply IH. rewrite app_nil_r in H. exact H.
Qed.

Theorem only_own_field now p e :
  let d := expect_event now p e in
  v_id d = v_id e /\ v_status d = v_status e /\ v_runnable d = v_runnable e /\ v_file d = v_file e
  /\ v_bytes d = v_bytes e /\ v_eof d = v_eof e /\ v_mime d = v_mime e
  /\ v_route d = push_all (queue_codes p) (v_route e)
  /\ (forall k, v_ts e = TsGiven k -> v_ts d = TsGiven k)
  /\ (v_ts e = TsNone -> v_ts d = if existsb is_stamp p then TsFilled else TsNone)
  /\ (taggers p = [] -> v_tags d = deref now (v_tags e))
  /\ (taggers p <> [] ->
      forall t, In t (match v_tags d with Some v => v | None => [] end)
                <-> t < tag_universe /\ member_after (taggers p) t (mem t (tags_or_empty now (v_tags e))) = true).
Proof.
  cbv zeta. unfold expect_event. simpl. repeat (split; [reflexivity|]).
  split; [apply route_fold|]. split; [|split; [|split]].
  - intros k ->. destruct (existsb is_stamp p); reflexivity.
  - intros ->. destruct (existsb is_stamp p); reflexivity.
  - intro H. rewrite (tag_fold_notag now p _ H). reflexivity.
  - intros H t.
    pose proof (tag_fold_mem now t) as Hm. pose proof (tag_fold_small now p (Orig (v_tags e)) H t) as Hs.
    destruct (tag_fold_fresh now p (Orig (v_tags e)) H) as [v Ev]. rewrite Ev in *. simpl in Hs.
    assert (Hv : match tag_finish now (Fresh v) with Some v0 => v0 | None => [] end = v) by (destruct v; reflexivity).
    rewrite Hv. split.
    + intro Hin. split; [apply Hs; exact Hin|].
      specialize (Hm (Hs Hin) p (Orig (v_tags e))). rewrite Ev in Hm.
      simpl in Hm. rewrite <- Hm. apply mem_In. exact Hin.
    + intros [Ht Hb]. specialize (Hm Ht p (Orig (v_tags e))). rewrite Ev in Hm. simpl in Hm.
      apply mem_In. rewrite Hm. exact Hb.
Qed.

Theorem no_mutation i : wf i -> forall k o so,
  nth_error (ops i) k = Some o -> nth_error (o_steps (model i)) k = Some so ->
  s_caller so = caller_step (caller_after (caller i) (firstn k (ops i))) o
  /\ ((forall l v, o <> OMutate l v) -> s_caller so = caller_after (caller i) (firstn k (ops i))).
Proof.
  intros Hwf k o so Ho Hso. rewrite (model_step i k o so Hwf Ho Hso).
  split; [reflexivity|]. intro H. simpl. destruct o as [| |e|l v]; try reflexivity.
  exfalso. exact (H l v eq_refl).
Qed.

Definition by_value (now : store) (e : event tagref) : event otags := with_tags e (deref now (v_tags e)).

Definition SameVal (now1 now2 : store) (x1 x2 : tagstate) : Prop :=
  match x1, x2 with
  | Orig a, Orig b => deref now1 a = deref now2 b
  | Fresh v, Fresh w => v = w
  | _, _ => False
  end.

Lemma tag_fold_value now1 now2 p : forall x1 x2, SameVal now1 now2 x1 x2 ->
  tag_finish now1 (fold_left (tag_step now1) p x1) = tag_finish now2 (fold_left (tag_step now2) p x2).
Proof.
  induction p as [|s p IH]; intros x1 x2 H.
  - destruct x1 as [a|v], x2 as [b|w]; simpl in *; try contradiction; [exact H | subst; reflexivity].
  - simpl fold_left. apply IH. destruct s; simpl; try exact H.
    destruct x1 as [a|v], x2 as [b|w]; simpl in *; try contradiction.
    + unfold tags_or_empty. rewrite H. reflexivity.
    + subst. reflexivity.
Qed.

Theorem value_only now1 now2 p e1 e2 :
  by_value now1 e1 = by_value now2 e2 -> expect_event now1 p e1 = expect_event now2 p e2.
Proof.
  destruct e1 as [a1 a2 a3 a4 a5 a6 a7 a8 a9 a10], e2 as [b1 b2 b3 b4 b5 b6 b7 b8 b9 b10].
  unfold by_value, with_tags, expect_event. simpl. intro H. injection H as -> -> H -> -> -> -> -> -> ->.
  f_equal. apply tag_fold_value. exact H.
Qed.

Theorem value_only_model i1 i2 : wf i1 -> wf i2 ->
  forall k1 k2 e1 e2 so1 so2 j1 j2 pk,
  nth_error (ops i1) k1 = Some (OStatus e1) -> nth_error (ops i2) k2 = Some (OStatus e2) ->
  nth_error (o_steps (model i1)) k1 = Some so1 -> nth_error (o_steps (model i2)) k2 = Some so2 ->
  nth_error (leaves (tree i1)) j1 = Some pk -> nth_error (leaves (tree i2)) j2 = Some pk ->
  by_value (caller_after (caller i1) (firstn k1 (ops i1))) e1 = by_value (caller_after (caller i2) (firstn k2 (ops i2))) e2 ->
  nth_error (s_new so1) j1 = nth_error (s_new so2) j2.
Proof.
  intros W1 W2 k1 k2 e1 e2 so1 so2 j1 j2 pk O1 O2 S1 S2 L1 L2 HV.
  destruct (once_in_order i1 W1 k1 _ so1 j1 pk O1 S1 L1) as [R1 _].
  destruct (once_in_order i2 W2 k2 _ so2 j2 pk O2 S2 L2) as [R2 _].
  rewrite R1, R2. f_equal. unfold expect_new. destruct (snd pk).
  - rewrite (value_only _ _ (fst pk) e1 e2 HV). reflexivity.
  - apply (f_equal v_status) in HV. destruct e1, e2; simpl in HV. simpl. rewrite HV. reflexivity.
Qed.

Theorem start_stop_every_time i : wf i -> forall k o so j pk,
  (o = OStart \/ o = OStop) ->
  nth_error (ops i) k = Some o -> nth_error (o_steps (model i)) k = Some so ->
  nth_error (leaves (tree i)) j = Some pk ->
  nth_error (s_new so) j = Some (match snd pk, o with
                                 | LSink, OStart => [EStart] | LSink, OStop => [EStop] | _, _ => [] end).
Proof.
  intros Hwf k o so j pk Hkind Ho Hso Hpk.
  destruct (once_in_order i Hwf k o so j pk Ho Hso Hpk) as [R _]. rewrite R. f_equal.
  unfold expect_new. destruct Hkind as [-> | ->]; destruct (snd pk); reflexivity.
Qed.
