(* C05 - proofs: the unique-name loops find a free name; the dict the outcome carries against the list the
   statement expects, by a simulation of the statement's reading of the detail events; the handler calls. *)
From TT Require Import Lib.Base Lib.EqbFacts Lib.ListFacts Lib.Count Gen.Handlers Model.Run Spec.Run Spec.C05 Corr.C05 Proof.RunCore Proof.RunExtra Proof.RunTable.

Lemma ocontent_eqb_spec a b : ocontent_eqb a b = true <-> a = b.
Proof. destruct a, b; simpl; eqb_components ltac:(first [apply Nat.eqb_eq | apply onat_eqb_spec]). Qed.
Lemma odetail_eqb_spec a b : odetail_eqb a b = true <-> a = b.
Proof. apply pair_eqb_spec; [apply Nat.eqb_eq | apply ocontent_eqb_spec]. Qed.
Lemma call_eqb_spec a b : call_eqb a b = true <-> a = b.
Proof. apply pair_eqb_spec; [apply Nat.eqb_eq | intros; apply cls_eqb_spec]. Qed.

(* what the comparison of observations identifies: the details as a multiset of (base name, content) *)
Definition obs_equiv (a b : obs) : Prop :=
  o_outs a = o_outs b /\ (forall d, count d (o_details a) = count d (o_details b))
  /\ o_calls a = o_calls b /\ o_late a = o_late b.

Lemma same_details_spec a b : same_details a b = true <-> forall d, count d a = count d b.
Proof. exact (same_counts odetail_eqb odetail_eqb_spec a b). Qed.

Lemma dname_eqb_spec a b : dname_eqb a b = true <-> a = b.
Proof.
  destruct a, b; unfold dname_eqb; cbn [fst snd]. eqb_components ltac:(first [apply Nat.eqb_eq | apply nats_eqb_spec]).
Qed.
Lemma dname_eqb_refl a : dname_eqb a a = true.
Proof. now apply dname_eqb_spec. Qed.
Lemma dname_eqb_base a b : fst a <> fst b -> dname_eqb a b = false.
Proof. intros H. destruct (dname_eqb a b) eqn:E; [|reflexivity]. apply dname_eqb_spec in E. congruence. Qed.

Lemma dmem_in n d : dmem n d = true <-> In n (map fst d).
Proof.
  induction d as [|[m c] r IH]; simpl; [split; [discriminate | tauto]|].
  rewrite orb_true_iff, IH, dname_eqb_spec. split; intros [H|H]; auto.
Qed.
Lemma dput_fresh {n c d} : dmem n d = false -> dput n c d = d ++ [(n, c)].
Proof.
  induction d as [|[m x] r IH]; simpl; [reflexivity|]. intros H. apply orb_false_iff in H as [H1 H2].
  rewrite H1, (IH H2). reflexivity.
Qed.

(* C05_unique_fresh, by pigeonhole *)
Lemma suffixed_inj n j k : suffixed n j = suffixed n k -> j = k.
Proof. unfold suffixed. intros H. injection H as H. apply app_inj_tail in H. tauto. Qed.
Lemma suffixed_longer n k : length (snd (suffixed n k)) = S (length (snd n)).
Proof. unfold suffixed. cbn [snd]. rewrite app_length. simpl. lia. Qed.
Lemma suffixed_neq n k : n <> suffixed n k.
Proof. intros H. apply (f_equal (fun x => length (snd x))) in H. rewrite suffixed_longer in H. lia. Qed.

(* the pigeonhole both unique-name loops rest on: [seen] are distinct candidates found taken so far *)
Definition taken (d : details) (seen : list dname) : Prop := NoDup seen /\ incl seen (map fst d).
Lemma taken_bound d seen : taken d seen -> length seen <= length d.
Proof. intros [ND INC]. rewrite <- (map_length fst d). exact (NoDup_incl_length ND INC). Qed.
Lemma taken_cons d seen c : taken d seen -> dmem c d = true -> ~ In c seen -> taken d (c :: seen).
Proof.
  intros [ND INC] E N. split; [now constructor|]. intros m [<-|Hm]; [now apply dmem_in | now apply INC].
Qed.

(* addDetailUniqueName / gather_details *)
Lemma first_free_fresh n d : forall fuel k seen,
  taken d seen ->
  (forall m j, In m seen -> k <= j -> m <> suffixed n j) ->
  length d < length seen + fuel ->
  dmem (first_free n d k fuel) d = false.
Proof.
  induction fuel as [|f IH]; intros k seen T DIS LEN.
  - apply taken_bound in T. lia.
  - cbn [first_free]. destruct (dmem (suffixed n k) d) eqn:E; [|exact E].
    apply (IH (S k) (suffixed n k :: seen)).
    + apply taken_cons; [exact T | exact E|]. intro HIn. exact (DIS _ k HIn (le_n _) eq_refl).
    + intros m j [<-|Hm] Hj; [intro H; apply suffixed_inj in H; lia | apply DIS; [exact Hm | lia]].
    + cbn [length]. lia.
Qed.
Lemma first_free_base n d : forall fuel k, fst (first_free n d k fuel) = fst n.
Proof.
  induction fuel as [|f IH]; intros k; cbn [first_free]; [reflexivity|].
  destruct (dmem _ d); [apply IH | reflexivity].
Qed.

Theorem unique_name_fresh n d : dmem (unique_name n d) d = false /\ fst (unique_name n d) = fst n.
Proof.
  unfold unique_name. destruct (dmem n d) eqn:E; [|split; [exact E | reflexivity]].
  split; [|apply first_free_base].
  apply (first_free_fresh n d (length d) 1 [n]).
  - apply taken_cons; [split; [constructor | intros ? []] | exact E | intros []].
  - intros m j [<-|[]] _. apply suffixed_neq.
  - cbn [length]. lia.
Qed.

(* _report_traceback: the label accumulates, so every candidate is longer than the ones before *)
Definition tb_next (id : nat) (lab : dname) : dname := match id with 0 => lab | _ => suffixed lab id end.
Lemma tb_label_eq fuel id lab d :
  tb_label fuel id lab d
  = if dmem (tb_next id lab) d
    then match fuel with 0 => (tb_next id lab, S id) | S f => tb_label f (S id) (tb_next id lab) d end
    else (tb_next id lab, S id).
Proof. destruct fuel; reflexivity. Qed.

Lemma tb_label_fresh d : forall fuel id lab seen,
  taken d seen ->
  Forall (fun m => length (snd m) < length (snd (tb_next id lab))) seen ->
  length d <= length seen + fuel ->
  dmem (fst (tb_label fuel id lab d)) d = false.
Proof.
  induction fuel as [|f IH]; intros id lab seen T LT LEN; rewrite tb_label_eq;
    destruct (dmem (tb_next id lab) d) eqn:E; try exact E.
  (* the candidate is longer than everything seen so far *)
  all: assert (N : ~ In (tb_next id lab) seen)
         by (intro HIn; rewrite Forall_forall in LT; specialize (LT _ HIn); lia).
  all: pose proof (taken_cons _ _ _ T E N) as T'.
  - apply taken_bound in T'. cbn [length] in T'. lia.
  - apply (IH (S id) (tb_next id lab) (tb_next id lab :: seen) T').
    + cbn [tb_next]. rewrite suffixed_longer. constructor; [lia|].
      eapply Forall_impl; [|exact LT]. cbv beta. intros; lia.
    + cbn [length]. lia.
Qed.
Lemma tb_label_base d : forall fuel id lab, fst (fst (tb_label fuel id lab d)) = fst lab.
Proof.
  assert (B : forall id lab, fst (tb_next id lab) = fst lab) by (intros [|id] lab; reflexivity).
  induction fuel as [|f IH]; intros id lab; rewrite tb_label_eq; destruct (dmem _ d); cbn [fst]; rewrite ?IH; apply B.
Qed.

Theorem tb_label_spec d id :
  dmem (fst (tb_label (length d) id n_traceback d)) d = false
  /\ fst (fst (tb_label (length d) id n_traceback d)) = fst n_traceback.
Proof.
  split; [|apply tb_label_base].
  apply (tb_label_fresh d (length d) id n_traceback []); [split; [constructor | intros ? []] | constructor | exact (le_n _)].
Qed.

Definition is_ctb (c : content) : bool := match c with CTb => true | _ => false end.

(* [dict_matches G k xl dl]: the dict [dl] is the expected list [xl], in order, with [k] generated traceback
   entries in between; an entry the test attached has its exact name, a generated one a name
   with the expected base; the bases of all generated names are in [G] *)
Inductive dict_matches (G : list nat) : nat -> list xentry -> details -> Prop :=
| matches_nil : dict_matches G 0 [] []
| matches_tb m xl dl k : In (fst m) G -> dict_matches G k xl dl -> dict_matches G (S k) xl ((m, CTb) :: dl)
| matches_user n c xl dl k : is_ctb c = false -> dict_matches G k xl dl ->
                             dict_matches G k ((Some n, fst n, c) :: xl) ((n, c) :: dl)
| matches_gen m c xl dl k : In (fst m) G -> is_ctb c = false -> dict_matches G k xl dl ->
                      dict_matches G k ((None, fst m, c) :: xl) ((m, c) :: dl).

Lemma matches_mono G G' k xl dl : incl G G' -> dict_matches G k xl dl -> dict_matches G' k xl dl.
Proof. intros I H. induction H; constructor; auto. Qed.

Lemma matches_app G k1 a b :
  dict_matches G k1 a b -> forall k2 c d, dict_matches G k2 c d -> dict_matches G (k1 + k2) (a ++ c) (b ++ d).
Proof. induction 1; intros k2 c' d' H'; cbn [app plus]; [exact H' | constructor; auto ..]. Qed.

(* the test (or the skip handler) attaches a detail under a name whose base no generated name has *)
Lemma matches_put G k xl dl n c :
  dict_matches G k xl dl -> ~ In (fst n) G -> is_ctb c = false -> dict_matches G k (kput n c xl) (dput n c dl).
Proof.
  intros H Hn Hc. induction H as [| m xl dl k Hm H IH | n0 c0 xl dl k Hc0 H IH | m c0 xl dl k Hm Hc0 H IH].
  - cbn. apply matches_user; [exact Hc | constructor].
  - cbn [dput]. rewrite dname_eqb_base by (intro E; apply Hn; rewrite E; exact Hm). apply matches_tb; assumption.
  - cbn [kput dput]. destruct (dname_eqb n n0); constructor; assumption.
  - cbn [kput dput]. rewrite dname_eqb_base by (intro E; apply Hn; rewrite E; exact Hm). apply matches_gen; assumption.
Qed.

(* a generated entry goes in under a name that is not taken: at the end *)
Lemma matches_fresh {G k k2 xl x dl m c} :
  dict_matches G k xl dl -> dmem m dl = false -> dict_matches G k2 x [(m, c)] ->
  dict_matches G (k + k2) (xl ++ x) (dput m c dl).
Proof. intros H F H2. rewrite (dput_fresh F). now apply matches_app. Qed.

Definition out_x (f : content -> ocontent) (e : xentry) : odetail := (snd (fst e), f (snd e)).
Definition out_d (f : content -> ocontent) (nc : dname * content) : odetail := (fst (fst nc), f (snd nc)).

Lemma matches_count {G k xl dl} f :
  dict_matches G k xl dl -> forall d, count d (map (out_x f) xl) <= count d (map (out_d f) dl).
Proof.
  intros H d. unfold count.
  induction H as [|m xl dl k Hm H IH | n c xl dl k Hc H IH | m c xl dl k Hm Hc H IH]; cbn [map].
  - apply le_n.
  - (* a generated traceback: only the dict grows *)
    rewrite count_cons. exact (Nat.le_trans _ _ _ IH (Nat.le_add_l _ _)).
  - rewrite !count_cons. apply Nat.add_le_mono_l, IH.
  - rewrite !count_cons. apply Nat.add_le_mono_l, IH.
Qed.

Lemma is_tb_out_d D nc : is_tb (out_d (dresolve D) nc) = is_ctb (snd nc).
Proof. destruct nc as [n c]. destruct c; reflexivity. Qed.
Lemma matches_tbs {G k xl dl} D : dict_matches G k xl dl -> length (filter is_tb (map (out_d (dresolve D)) dl)) = k.
Proof.
  induction 1 as [|m xl dl k Hm H IH | n c xl dl k Hc H IH | m c xl dl k Hm Hc H IH]; cbn [map filter].
  - reflexivity.
  - rewrite is_tb_out_d. cbn [snd is_ctb length]. now rewrite IH.
  - rewrite is_tb_out_d. cbn [snd]. now rewrite Hc.
  - rewrite is_tb_out_d. cbn [snd]. now rewrite Hc.
Qed.

(* the names the event brings along are not the reserved one *)
Definition ev_wf (e : devent) : bool :=
  match e with DUser n _ | DMis n _ | DFx n _ => wf_name n | _ => true end.
(* the machine generates a traceback detail *)
Definition tbev (e : devent) : bool :=
  match e with DTb => true | DExc c => negb (no_traceback c) | _ => false end.

Lemma d_tb_spec d :
  exists lab, d_dets (d_tb d) = dput lab CTb (d_dets d) /\ dmem lab (d_dets d) = false /\ fst lab = fst n_traceback
              /\ d_cells (d_tb d) = d_cells d /\ d_onexc (d_tb d) = d_onexc d /\ d_calls (d_tb d) = d_calls d.
Proof.
  unfold d_tb. destruct (tb_label_spec (d_dets d) (d_tbgen d)) as [F B].
  destruct (tb_label _ _ _ _) as [lab nxt]. exists lab. cbn [fst d_dets d_cells d_onexc d_calls] in *.
  split; [reflexivity|]. split; [exact F|]. split; [exact B|]. repeat split.
Qed.

(* the cells, the handlers and their calls: both readings make the same of every event, whatever
   happens to the details *)
Definition agree (x : xs) (d : dst) : Prop :=
  x_cells x = d_cells d /\ x_onexc x = d_onexc d /\ x_calls x = d_calls d.

Lemma agree_step x d e : agree x d -> agree (xstep x e) (papply d e).
Proof.
  intros (H1 & H2 & H3). destruct (d_tb_spec d) as (lab & _ & _ & _ & T1 & T2 & T3). unfold agree.
  destruct e as [n loc | loc v | n loc | | n loc | | r | h | c];
    cbn [xstep papply xgen xmark d_put x_cells x_onexc x_calls d_cells d_onexc d_calls].
  - repeat split; assumption.
  - rewrite H1. repeat split; assumption.
  - repeat split; assumption.
  - repeat split; assumption.
  - repeat split; assumption.
  - rewrite T1, T2, T3. repeat split; assumption.
  - repeat split; assumption.
  - rewrite H2. repeat split; assumption.
  - destruct (no_traceback c); cbn [d_cells d_onexc d_calls]; rewrite ?T1, ?T2, ?T3, H2, H3; repeat split; assumption.
Qed.
Lemma agree_run l : forall x d, agree x d -> agree (fold_left xstep l x) (prun l d).
Proof. induction l as [|e r IH]; intros x d H; [exact H | apply IH, agree_step, H]. Qed.

Lemma wf_name_neq n : wf_name n = true -> fst n <> fst n_reason.
Proof. unfold wf_name. intros H E. rewrite E, Nat.eqb_refl in H. discriminate. Qed.

(* the dict against the expected list, and no generated name has the reserved base *)
Definition dict_inv (G : list nat) (k : nat) (xl : list xentry) (dl : details) : Prop :=
  dict_matches G k xl dl /\ ~ In (fst n_reason) G.

Lemma inv_grow {G k xl dl} b : dict_inv G k xl dl -> b <> fst n_reason -> dict_inv (b :: G) k xl dl.
Proof.
  intros [H N] Hb. split; [|intros [E|E]; [exact (Hb E) | exact (N E)]].
  eapply matches_mono; [|exact H]. intros ? ?; now right.
Qed.
Lemma inv_gen {G k xl dl} n {c} :
  dict_inv G k xl dl -> wf_name n = true -> is_ctb c = false ->
  dict_inv (fst n :: G) k (xl ++ [(None, fst n, c)]) (dput (unique_name n dl) c dl).
Proof.
  intros H W C. destruct (unique_name_fresh n dl) as [F B].
  destruct (inv_grow (fst n) H (wf_name_neq n W)) as [H' N]. split; [|exact N].
  rewrite <- (Nat.add_0_r k). apply (matches_fresh H' F). rewrite <- B.
  apply matches_gen; [rewrite B; now left | exact C | constructor].
Qed.
Lemma inv_tb G k xl d : dict_inv G k xl (d_dets d) -> dict_inv (fst n_traceback :: G) (k + 1) xl (d_dets (d_tb d)).
Proof.
  intros H. destruct (d_tb_spec d) as (lab & T1 & T2 & T3 & _).
  destruct (inv_grow (fst n_traceback) H ltac:(discriminate)) as [H' N]. split; [|exact N].
  rewrite T1, <- (app_nil_r xl). apply (matches_fresh H' T2). apply matches_tb; [rewrite T3; now left | constructor].
Qed.
Lemma inv_put G k xl dl n c :
  dict_inv G k xl dl -> ~ In (fst n) G -> is_ctb c = false -> dict_inv G k (kput n c xl) (dput n c dl).
Proof. intros [H N] Hn C. split; [now apply matches_put | exact N]. Qed.

Lemma inv_step x d k e :
  x_cells x = d_cells d -> dict_inv (x_gen x) k (x_list x) (d_dets d) -> ev_wf e = true -> x_f14 (xstep x e) = false ->
  dict_inv (x_gen (xstep x e)) (k + (if tbev e then 1 else 0)) (x_list (xstep x e)) (d_dets (papply d e)).
Proof.
  intros Hc H W F. destruct e as [n loc | loc v | n loc | | n loc | | r | h | c];
    cbn [tbev xstep papply xgen xmark d_put x_gen x_list d_dets]; rewrite ?Nat.add_0_r; try exact H.
  - (* the test attaches a detail: outside F14 no generated name has its base *)
    apply inv_put; [exact H | | reflexivity]. cbn [xstep x_f14] in F. apply orb_false_iff in F as [_ F].
    intros HIn. assert (T : existsb (Nat.eqb (fst n)) (x_gen x) = true); [|congruence].
    apply existsb_exists. exists (fst n). split; [exact HIn | apply Nat.eqb_refl].
  - now apply inv_gen.
  - now apply (inv_gen n_failed_expectation).
  - unfold xcell. rewrite Hc. now apply inv_gen.
  - now apply inv_tb.
  - apply inv_put; [exact H | exact (proj2 H) | reflexivity].
  - (* an exception is caught: traceback unless it is a signal *)
    destruct (no_traceback c); cbn [negb d_dets]; rewrite ?Nat.add_0_r; [|now apply inv_tb].
    apply inv_grow; [exact H | discriminate].
Qed.

(* the mark of F14 is never taken back *)
Lemma f14_mono l : forall x, x_f14 (fold_left xstep l x) = false -> x_f14 x = false.
Proof.
  induction l as [|e r IH]; intros x H; [exact H|]. apply IH in H.
  destruct e; cbn [xstep x_f14 xgen xmark] in H; try exact H. now apply orb_false_iff in H.
Qed.

Lemma inv_run l : forall x d k,
  agree x d -> dict_inv (x_gen x) k (x_list x) (d_dets d) ->
  forallb ev_wf l = true -> x_f14 (fold_left xstep l x) = false ->
  dict_inv (x_gen (fold_left xstep l x)) (k + length (filter tbev l)) (x_list (fold_left xstep l x)) (d_dets (prun l d)).
Proof.
  induction l as [|e r IH]; intros x d k A I W F; cbn [fold_left prun filter length]; [now rewrite Nat.add_0_r|].
  cbn [forallb] in W. apply andb_true_iff in W as [We Wr]. cbn [fold_left] in F.
  pose proof (inv_step x d k e (proj1 A) I We (f14_mono r _ F)) as I'.
  specialize (IH _ _ _ (agree_step _ _ e A) I' Wr F). unfold prun in IH.
  destruct (tbev e); cbn [length]; [|rewrite Nat.add_0_r in IH; exact IH].
  rewrite <- Nat.add_1_l, Nat.add_assoc. exact IH.
Qed.

Definition nl_wf (l : list (dname * nat)) : bool := forallb (fun nl => wf_name (fst nl)) l.

Lemma nl_put_wf n loc l : wf_name n = true -> nl_wf l = true -> nl_wf (nl_put n loc l) = true.
Proof.
  intros W. induction l as [|[m x] r IH]; cbn [nl_put nl_wf forallb fst]; intros H.
  - now rewrite W.
  - apply andb_true_iff in H as [H1 H2]. destruct (dname_eqb n m); cbn [forallb fst]; rewrite H1; [exact H2 | exact (IH H2)].
Qed.
Lemma nl_dict_wf l : nl_wf l = true -> nl_wf (nl_dict l) = true.
Proof.
  unfold nl_dict. assert (G : forall acc, nl_wf acc = true -> nl_wf l = true ->
                              nl_wf (fold_left (fun d nl => nl_put (fst nl) (snd nl) d) l acc) = true).
  { induction l as [|[n loc] r IH]; intros acc Ha Hl; [exact Ha|]. cbn [fold_left fst snd].
    cbn [nl_wf forallb fst] in Hl. apply andb_true_iff in Hl as [H1 H2].
    apply IH; [apply nl_put_wf; assumption | exact H2]. }
  apply G. reflexivity.
Qed.

Definition evs_wf (l : list devent) : bool := forallb ev_wf l.
Lemma evs_wf_app a b : evs_wf (a ++ b) = evs_wf a && evs_wf b.
Proof. apply forallb_app. Qed.
Lemma exc_events_wf r : evs_wf (exc_events r) = true.
Proof. unfold evs_wf, exc_events. rewrite forallb_map. now apply forallb_forall. Qed.
Lemma mm_events_wf mm : nl_wf mm = true -> evs_wf (mm_events mm) = true.
Proof. intros H. unfold evs_wf, mm_events. rewrite forallb_map. exact (nl_dict_wf mm H). Qed.
Lemma fx_events_wf fx : nl_wf (fx_details fx) = true -> evs_wf (fx_events fx) = true.
Proof.
  intros H. apply nl_dict_wf in H. unfold evs_wf, fx_events, fx_good. rewrite forallb_map.
  destruct (fx_bad fx) as [[k g]|]; [|exact H].
  unfold nl_wf in H. rewrite <- (firstn_skipn k (nl_dict _)), forallb_app in H. now apply andb_true_iff in H.
Qed.

Definition acts_wf (l : list act) : bool := forallb wf_names_act l.
Lemma wf_names_cleanup t body : wf_names_act (ACleanup t body) = acts_wf body.
Proof. cbn [wf_names_act]. induction body as [|x r IH]; [reflexivity|]. cbn [acts_wf forallb]. now rewrite IH. Qed.

Lemma act_events_wf a : wf_names_act a = true -> evs_wf (act_events a) = true.
Proof.
  destruct a as [n loc | loc v | mm | mm | t body | x v | fx | h | | c o | r p | pk | e]; cbn [wf_names_act act_events];
    intros H; try reflexivity; rewrite ?evs_wf_app, ?mm_events_wf by exact H; try reflexivity.
  - cbn. now rewrite H.
  - destruct (fx_fail fx); [|reflexivity]. rewrite evs_wf_app, fx_events_wf by exact H. now destruct (fx_eval_raise fx).
  - destruct p as [e|]; [destruct (isinstance e CFail)|]; reflexivity.
Qed.
Lemma acts_events_wf l : acts_wf l = true -> evs_wf (acts_events l) = true.
Proof.
  unfold acts_events, evs_wf, acts_wf. rewrite forallb_flat_map.
  induction l as [|a r IH]; [reflexivity|]. cbn [forallb executed]. intros H. apply andb_true_iff in H as [H1 H2].
  fold (evs_wf (act_events a)). rewrite (act_events_wf a H1). destruct (act_raise a); [reflexivity | exact (IH H2)].
Qed.

Lemma pending_events_wf l : acts_wf l = true -> evs_wf (flat_map entry_events (pending l)) = true.
Proof.
  apply (acts_nest_ind (fun a => wf_names_act a = true -> evs_wf (flat_map entry_events (act_entries a)) = true)
                       (fun l => acts_wf l = true -> evs_wf (flat_map entry_events (pending l)) = true)).
  - reflexivity.
  - intros x r Hx Hr W. cbn [pending]. cbn [acts_wf forallb] in W. apply andb_true_iff in W as [W1 W2].
    destruct (act_raise x); [reflexivity|]. now rewrite flat_map_app, evs_wf_app, (Hr W2), (Hx W1).
  - intros t body H W. rewrite act_entries_cleanup. rewrite wf_names_cleanup in W. cbn [flat_map entry_events].
    now rewrite !evs_wf_app, exc_events_wf, (acts_events_wf _ W), (H W).
  - intros a Ha W. destruct a; try (exfalso; eapply Ha; reflexivity); try reflexivity.
    cbn [act_entries]. destruct (fixture_raise fx); [reflexivity|]. cbn [flat_map entry_events wf_names_act] in *.
    now rewrite !evs_wf_app, !exc_events_wf, (fx_events_wf fx W).
Qed.

Lemma events_wf i : wf i = true -> evs_wf (events (i_prog i)) = true.
Proof.
  unfold wf. intros W.
  apply andb_true_iff in W as [W W3]. apply andb_true_iff in W as [W W2]. apply andb_true_iff in W as [_ W1].
  set (p := i_prog i) in *. unfold events, body_events, cleanup_entries. destruct (skipped p); [reflexivity|].
  (* every piece is well-formed by one of the lemmas above; what remains is the traceback of @expectedFailure *)
  destruct (setup_returns p); rewrite ?flat_map_app, ?evs_wf_app.
  - rewrite !exc_events_wf, !acts_events_wf, !pending_events_wf by assumption. rewrite !andb_true_r. cbn [andb].
    destruct (p_xfail p); [|reflexivity]. destruct (acts_raise _) as [e|]; [|reflexivity].
    now destruct (isinstance e CException).
  - now rewrite !exc_events_wf, acts_events_wf, pending_events_wf by assumption.
Qed.

(* the handler found for the reported exception records the skip reason iff nobody inserted a handler for
   it and it stands for a skip by its class *)
Lemma lookup_reason p e :
  reported p = Some e ->
  match lookup (handlers_of (user_handlers p)) e with
  | Some h => if h_reason h then Some (arg_of e) else None
  | None => None
  end = skip_reason p.
Proof.
  intros Rp. unfold skip_reason, lookup, handlers_of, user_claim. rewrite Rp, find_app, find_map. cbn [user_handler h_cls].
  destruct (find (fun a => isinstance e (fst a)) (user_handlers p)) as [co|]; cbn [option_map]; [reflexivity|].
  pose proof (table_outcome_spec (cls_of e)) as T. unfold table_outcome in T.
  change (fun h => subclass (cls_of e) (h_cls h)) with (fun h => isinstance e (h_cls h)) in T.
  destruct (find (fun h => isinstance e (h_cls h)) generated_handlers) as [h|] eqn:F.
  - pose proof table_reason as TR. rewrite forallb_forall in TR. apply find_some in F as [Hin _].
    specialize (TR h Hin). apply eqb_prop in TR. rewrite TR, T. now destruct (standard_outcome (cls_of e)).
  - assert (N : isinstance e CException = false) by (rewrite <- generated_claims, existsb_find, F; reflexivity).
    now rewrite (not_exception_is_error _ N).
Qed.

Definition not_out (e : tev) : Prop := match e with TOut _ _ => False | _ => True end.
Lemma no_out_of_calls t : calls t = [TStart] -> Forall not_out t.
Proof.
  intros H. apply Forall_forall. intros e He. destruct e; cbn; auto.
  assert (I : In (TOut o d) (calls t)) by (apply filter_In; split; [exact He | reflexivity]).
  rewrite H in I. destruct I as [I|[]]. discriminate.
Qed.
Lemma out_app a b :
  Forall not_out a ->
  before_out (a ++ b) = a ++ before_out b /\ after_out (a ++ b) = after_out b
  /\ first_out (a ++ b) = first_out b /\ n_outs (a ++ b) = n_outs b.
Proof.
  unfold n_outs. induction 1 as [|e r He Hr (I1 & I2 & I3 & I4)]; [repeat split|].
  destruct e; cbn in *; try contradiction; rewrite I1; repeat split; assumption.
Qed.

Definition d0 : dst := {| d_dets := []; d_tbgen := 0; d_cells := []; d_onexc := []; d_calls := [] |}.
Definition dfinal (p : prog) : dst := prun (events p) d0.
(* the dict handed over with the outcome *)
Definition dreport (p : prog) : dst :=
  match skip_reason p with Some r => d_put n_reason (CReason r) (dfinal p) | None => dfinal p end.
Definition delivered (p : prog) : list (dname * ocontent) :=
  match p_skip p with
  | Some r => [(n_reason, OReason (Some r))]
  | None => details_at (dreport p)
  end.

(* what the model observes, in closed form: one outcome call carrying [delivered p], preceded by
   all handler calls *)
Theorem model_obs i :
  model i = {| o_outs := 1;
               o_details := map (fun nc => (fst (fst nc), snd nc)) (delivered (i_prog i));
               o_calls := d_calls (dfinal (i_prog i));
               o_late := 0 |}.
Proof.
  unfold model, run. set (p := i_prog i).
  pose proof (run_from_spec p (init p [])) as H. cbv zeta in H.
  destruct H as (s & tr0 & Rn & _ & _ & _ & _ & _ & _ & T & C & HC & _).
  rewrite Rn. cbn [tr force uh init calls filter app] in *.
  rewrite collected_run_fresh, run_events_fresh in *.
  change (proj (reset (init p []))) with d0 in *. fold (dfinal p) in *. fold (user_handlers p) in *.
  pose proof (no_out_of_calls _ C) as NO.
  assert (O : exists o, fst (fst (conclude p (handlers_of (user_handlers p)) (raised p) (dfinal p)))
                        = [TOut o (delivered p)]).
  { unfold conclude, delivered, dreport. destruct (p_skip p) as [r|]; [eexists; reflexivity|].
    rewrite choose_reported_for, reported_for_spec. destruct (reported p) as [e|] eqn:Rp.
    2: { unfold skip_reason. rewrite Rp. eexists; reflexivity. }
    rewrite <- (lookup_reason p e Rp). pose proof (lookup_handlers_of (user_handlers p) e) as LO.
    destruct (lookup (handlers_of (user_handlers p)) e) as [h|]; cbn [fst]; rewrite LO; [destruct (h_reason h)|];
      eexists; reflexivity. }
  destruct O as [o O]. rewrite O in T. rewrite T.
  destruct (out_app tr0 ([TOut o (delivered p)] ++ [TStop]) NO) as (-> & -> & -> & ->).
  cbn [app n_outs filter length first_out before_out after_out]. rewrite app_nil_r.
  f_equal. exact HC.
Qed.

Lemma agree_final p : agree (xrun p) (dfinal p).
Proof. apply agree_run. repeat split. Qed.

Lemma resolve_agree x d : x_cells x = d_cells d -> forall c, xresolve x c = dresolve d c.
Proof. intros H c. destruct c; cbn; unfold xcell, dcell; rewrite ?H; reflexivity. Qed.

Lemma needs_tbev e : needs_tb e = true -> tbev e = true.
Proof.
  destruct e as [| | | | | | | | c]; cbn [needs_tb tbev]; try discriminate; try reflexivity. intros H.
  destruct (no_traceback c) eqn:N; [|reflexivity]. exfalso. unfold no_traceback in N.
  apply existsb_exists in N as (h & Hin & Hh). pose proof table_signals as T. rewrite forallb_forall in T.
  specialize (T h Hin). destruct (cls_of_hclass h) as [d|]; [|discriminate].
  apply cls_eqb_spec in Hh. subst d. destruct (standard_outcome c); discriminate.
Qed.
Lemma tbev_may e : tbev e = true -> may_tb e = true.
Proof. destruct e; cbn; try discriminate; reflexivity. Qed.
Lemma filter_le {A} (f g : A -> bool) l : (forall a, f a = true -> g a = true) -> length (filter f l) <= length (filter g l).
Proof.
  intros H. induction l as [|a r IH]; [apply le_n|]. cbn [filter]. destruct (f a) eqn:E.
  - rewrite (H a E). cbn [length]. lia.
  - destruct (g a); cbn [length]; lia.
Qed.
Lemma tb_bounds evs :
  length (filter needs_tb evs) <= length (filter tbev evs) /\ length (filter tbev evs) <= length (filter may_tb evs).
Proof. split; apply filter_le; [apply needs_tbev | apply tbev_may]. Qed.

(* the list expected, with the skip reason the handler records *)
Definition xfinal (p : prog) : list xentry :=
  match skip_reason p with Some r => kput n_reason (CReason r) (x_list (xrun p)) | None => x_list (xrun p) end.

(* the dict delivered against it (not skip-decorated) *)
Lemma delivered_matches i :
  wf i = true -> x_f14 (xrun (i_prog i)) = false ->
  dict_matches (x_gen (xrun (i_prog i))) (length (filter tbev (events (i_prog i)))) (xfinal (i_prog i))
               (d_dets (dreport (i_prog i))).
Proof.
  intros W F.
  assert (A0 : agree x0 d0) by (repeat split).
  assert (R0 : dict_inv (x_gen x0) 0 (x_list x0) (d_dets d0)) by (split; [constructor | intros []]).
  destruct (inv_run (events (i_prog i)) x0 d0 0 A0 R0 (events_wf i W) F) as [I4 I5].
  unfold dreport, xfinal. destruct (skip_reason (i_prog i)) as [r|]; [|exact I4]. now apply matches_put.
Qed.

Lemma expected_out p : p_skip p = None -> expected_details p = map (out_x (dresolve (dreport p))) (xfinal p).
Proof.
  unfold expected_details. intros ->. apply map_ext. intros e. unfold out_x. f_equal. apply resolve_agree.
  destruct (agree_final p) as (H & _). unfold dreport. now destruct (skip_reason p).
Qed.

(* C05_carried: every expected detail arrives as often as expected, and the outcome carries exactly
   one traceback detail per traceback the machine generates *)
Theorem carried i :
  wf i = true -> finding_F14 i = false ->
  (forall d, count d (expected_details (i_prog i)) <= count d (o_details (model i)))
  /\ length (filter is_tb (o_details (model i))) = length (filter tbev (events (i_prog i))).
Proof.
  intros W F. rewrite model_obs. cbn [o_details]. unfold finding_F14, skipped, delivered in *.
  destruct (p_skip (i_prog i)) as [r|] eqn:Sk.
  - unfold expected_details, events, skipped. rewrite Sk. cbn. split; [intros d; apply le_n | reflexivity].
  - pose proof (delivered_matches i W F) as HR. rewrite (expected_out _ Sk). unfold details_at. rewrite map_map.
    split; [intros d; exact (matches_count _ HR d) | exact (matches_tbs _ HR)].
Qed.

(* C05_no_clobber: whatever the dict holds, a generated detail (mismatch, expectation, fixture,
   traceback) only ever appends to it *)
Definition generated_ev (e : devent) : bool := match e with DUser _ _ | DReason _ => false | _ => true end.
Theorem no_clobber d e : generated_ev e = true -> exists l, d_dets (papply d e) = d_dets d ++ l.
Proof.
  assert (T : exists l, d_dets (d_tb d) = d_dets d ++ l).
  { destruct (d_tb_spec d) as (lab & T1 & T2 & _). rewrite T1, (dput_fresh T2). eexists; reflexivity. }
  (* a detail under a unique name goes to the end *)
  assert (U : forall n c, exists l, dput (unique_name n (d_dets d)) c (d_dets d) = d_dets d ++ l).
  { intros n c. rewrite (dput_fresh (proj1 (unique_name_fresh _ _))). eexists; reflexivity. }
  assert (N : exists l, d_dets d = d_dets d ++ l) by (exists []; now rewrite app_nil_r).
  destruct e as [n loc | loc v | n loc | | n loc | | r | h | c]; cbn [generated_ev papply d_put d_dets]; intros G.
  - discriminate G.
  - exact N.
  - apply U.
  - apply U.
  - apply U.
  - exact T.
  - discriminate G.
  - exact N.
  - destruct (no_traceback c); [exact N | exact T].
Qed.

(* C05_on_exception: for EVERY program - one outcome call; each handler called once per exception
   caught after its registration, in order; every call before the outcome *)
Theorem on_exception i :
  o_outs (model i) = 1 /\ o_calls (model i) = x_calls (xrun (i_prog i)) /\ o_late (model i) = 0.
Proof.
  rewrite model_obs. cbn [o_outs o_calls o_late].
  (* the handler calls do not depend on the details at all *)
  destruct (agree_final (i_prog i)) as (_ & _ & <-). auto.
Qed.

(* C05_bytes_at_report: the result reads the dict as it is when the outcome is reported - a lazy
   content yields what its cell holds then, a gathered fixture detail what the cell held when it
   was gathered *)
Theorem bytes_at_report :
  (forall i, o_details (model i) = map (fun nc => (fst (fst nc), snd nc)) (delivered (i_prog i)))
  /\ (forall p, p_skip p = None ->
        delivered p = map (fun nc => (fst nc, dresolve (dreport p) (snd nc))) (d_dets (dreport p))
        /\ d_cells (dreport p) = d_cells (dfinal p))
  /\ (forall D loc v, dresolve D (CLazy loc) = OBytes (dcell loc D) /\ dresolve D (CSnap v) = OBytes v)
  /\ (forall d n loc, In (unique_name n (d_dets d), CSnap (dcell loc d)) (d_dets (papply d (DFx n loc)))).
Proof.
  split; [intros i; now rewrite model_obs|]. split; [|split].
  - intros p Sk. unfold delivered, dreport. rewrite Sk. split; [reflexivity|]. destruct (skip_reason p); reflexivity.
  - intros; split; reflexivity.
  - intros d n loc. cbn [papply d_put d_dets].
    rewrite (dput_fresh (proj1 (unique_name_fresh n (d_dets d)))). apply in_or_app. right. left. reflexivity.
Qed.

Theorem unique_fresh :
  (forall n d, dmem (unique_name n d) d = false /\ fst (unique_name n d) = fst n)
  /\ (forall d id, dmem (fst (tb_label (length d) id n_traceback d)) d = false
                   /\ fst (fst (tb_label (length d) id n_traceback d)) = fst n_traceback).
Proof. exact (conj unique_name_fresh tb_label_spec). Qed.

(* known finding F14: inside the delimited class the statement is false of the model *)
Definition witness_F14 : input :=
  {| i_prog := {| p_skip := None; p_xfail := false;
                  p_setup := (1, [ACleanup 10 [ADetail n_traceback 1]]); p_up_setup := true;
                  p_body := (2, [ARaise (Exc CFail (Some 1))]);
                  p_teardown := (3, []); p_up_teardown := true; p_handlers := [] |} |}.
Theorem refuted_F14 : exists i, wf i = true /\ finding_F14 i = true /\ spec_okb i (model i) = false.
Proof. exists witness_F14. vm_compute. auto. Qed.
