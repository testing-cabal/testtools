(* Histories judged call by call: the observation of a call is a function of the calls made before it and
   of the call itself.  [trace f] is the list of these observations; a statement of the form
   "steps past l os" (Spec/C11.v, Spec/C18.v: steps_okb) judges the k-th observation against the k-th
   call and the calls before it. *)
From Coq Require Import List Bool Arith.
Import ListNotations.

Fixpoint trace {Op Obs} (f : list Op -> Op -> Obs) (past l : list Op) : list Obs :=
  match l with
  | [] => []
  | o :: r => f past o :: trace f (past ++ [o]) r
  end.

Lemma map_trace {Op Obs Obs'} (g : Obs -> Obs') (f : list Op -> Op -> Obs) l : forall past,
  map g (trace f past l) = trace (fun p o => g (f p o)) past l.
Proof. induction l as [|x l IH]; intro past; simpl; [reflexivity|]. rewrite IH. reflexivity. Qed.

Section Trace.
  Context {Op Obs : Type}.

  Lemma trace_nth (f : list Op -> Op -> Obs) l : forall past k o,
    nth_error l k = Some o -> nth_error (trace f past l) k = Some (f (past ++ firstn k l) o).
  Proof.
    induction l as [|x l IH]; intros past [|k] o H; simpl in *; try discriminate.
    - injection H as ->. rewrite app_nil_r. reflexivity.
    - rewrite (IH _ _ _ H), <- app_assoc. reflexivity.
  Qed.

  Lemma trace_length (f : list Op -> Op -> Obs) l : forall past, length (trace f past l) = length l.
  Proof. induction l as [|x l IH]; intro past; simpl; [reflexivity|]. rewrite IH. reflexivity. Qed.

  Lemma trace_app (f : list Op -> Op -> Obs) a : forall past b, trace f past (a ++ b) = trace f past a ++ trace f (past ++ a) b.
  Proof.
    induction a as [|x a IH]; intros past b; simpl; [rewrite app_nil_r; reflexivity|].
    rewrite IH, <- app_assoc. reflexivity.
  Qed.

  Lemma trace_nth_inv (f : list Op -> Op -> Obs) past l k o so :
    nth_error l k = Some o -> nth_error (trace f past l) k = Some so -> so = f (past ++ firstn k l) o.
  Proof. intros Ho Hso. rewrite (trace_nth f l past k o Ho) in Hso. injection Hso as <-. reflexivity. Qed.

  (* a call-by-call statement, given by its unfolding equations *)
  Variable steps : list Op -> list Op -> list Obs -> bool.
  Variable okb : list Op -> Op -> Obs -> bool.
  Hypothesis steps_nil : forall past, steps past [] [] = true.
  Hypothesis steps_cons : forall past o l so os,
    steps past (o :: l) (so :: os) = okb past o so && steps (past ++ [o]) l os.
  Hypothesis steps_short : forall past o l, steps past (o :: l) [] = false.
  Hypothesis steps_long : forall past so os, steps past [] (so :: os) = false.

  Lemma steps_sound l : forall past os, steps past l os = true ->
    length os = length l
    /\ forall k o so, nth_error l k = Some o -> nth_error os k = Some so -> okb (past ++ firstn k l) o so = true.
  Proof.
    induction l as [|o l IH]; intros past [|so os] H.
    - split; [reflexivity|]. intros [|k] ? ?; discriminate.
    - rewrite steps_long in H. discriminate.
    - rewrite steps_short in H. discriminate.
    - rewrite steps_cons in H. apply andb_true_iff in H as [H1 H2]. apply IH in H2 as [L H2].
      split; [simpl; f_equal; exact L|].
      intros [|k] o' so' Ho Hso; simpl in *.
      + injection Ho as <-. injection Hso as <-. rewrite app_nil_r. exact H1.
      + specialize (H2 k o' so' Ho Hso). rewrite <- app_assoc in H2. exact H2.
  Qed.

  Lemma steps_trace (f : list Op -> Op -> Obs) l : forall past,
    (forall l1 o l2, l = l1 ++ o :: l2 -> okb (past ++ l1) o (f (past ++ l1) o) = true) ->
    steps past l (trace f past l) = true.
  Proof.
    induction l as [|o l IH]; intros past H; simpl; [apply steps_nil|].
    rewrite steps_cons. apply andb_true_iff. split.
    - specialize (H [] o l eq_refl). rewrite app_nil_r in H. exact H.
    - apply IH. intros l1 o' l2 ->. specialize (H (o :: l1) o' l2 eq_refl).
      rewrite <- app_assoc. exact H.
  Qed.
End Trace.
