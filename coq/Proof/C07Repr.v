(* C07 - the literal evaluator gives back the original text, for repr and for the per-character model of the
   multiline branch, which the literal transliteration of text_repr equals.  All of it goes through one
   classification of what a character becomes outside the quote handling ([e0_cases]): two backslashes, the
   character itself, or a backslash followed by characters that are neither backslash nor quote. *)
From TT Require Import Lib.Base Lib.ListFacts Model.TextRepr.
Local Open Scope N_scope.

Lemma unhexdigit_hexdigit d : d < 16 -> unhexdigit (hexdigit d) = Some d.
Proof.
  intro H.
  assert (E : d = 0 \/ d = 1 \/ d = 2 \/ d = 3 \/ d = 4 \/ d = 5 \/ d = 6 \/ d = 7 \/ d = 8 \/ d = 9
              \/ d = 10 \/ d = 11 \/ d = 12 \/ d = 13 \/ d = 14 \/ d = 15) by lia.
  repeat (destruct E as [->|E]; [reflexivity|]). subst; reflexivity.
Qed.

Lemma unhex_app l1 : forall acc l2,
  unhex acc (l1 ++ l2) = match unhex acc l1 with Some a => unhex a l2 | None => None end.
Proof.
  induction l1 as [|h l1 IH]; intros acc l2; simpl; [reflexivity|].
  destruct (unhexdigit h); [apply IH|reflexivity].
Qed.

Lemma unhex_hex n : forall c acc, c < 16 ^ N.of_nat n -> unhex acc (hex n c) = Some (acc * 16 ^ N.of_nat n + c).
Proof.
  induction n as [|n IH]; intros c acc H.
  - simpl in *. f_equal. lia.
  - rewrite Nat2N.inj_succ, N.pow_succ_r' in *. simpl hex. rewrite unhex_app.
    assert (Hd : c / 16 < 16 ^ N.of_nat n) by (apply N.div_lt_upper_bound; lia).
    rewrite (IH _ acc Hd). cbn [unhex].
    assert (Hm : c mod 16 < 16) by (apply N.mod_lt; lia).
    rewrite (unhexdigit_hexdigit _ Hm). f_equal.
    assert (E : c = 16 * (c / 16) + c mod 16) by (apply N.div_mod; lia).
    set (d := c / 16) in *. set (m := c mod 16) in *. clearbody d m. subst c. ring.
Qed.

Lemma hex_length n : forall c, length (hex n c) = n.
Proof. induction n as [|n IH]; intro c; simpl; [reflexivity|]. rewrite app_length, IH. simpl. lia. Qed.

Lemma firstn_hex n c rest : firstn n (hex n c ++ rest) = hex n c.
Proof. rewrite <- (hex_length n c) at 1. apply firstn_exact. Qed.
Lemma skipn_hex n c rest : skipn n (hex n c ++ rest) = rest.
Proof. rewrite <- (hex_length n c) at 1. apply skipn_exact. Qed.

(* the closing quote is the single or the double quote, told apart by a boolean; q : option bool is None in a
   triple-quoted literal *)
Definition qch (d : bool) : N := if d then DQ else SQ.
Local Notation qo := (option_map qch).

Definition starts_sq (l : list N) : bool := match l with a :: _ => N.eqb a SQ | [] => false end.
Definition two_sq (l : list N) : bool :=
  match l with a :: b :: _ => N.eqb a SQ && N.eqb b SQ | _ => false end.

Lemma two_sq_cons a l : two_sq (a :: l) = N.eqb a SQ && starts_sq l.
Proof. destruct l; simpl; [rewrite andb_false_r|]; reflexivity. Qed.

Lemma two_sq_not_start l : starts_sq l = false -> two_sq l = false.
Proof. destruct l as [|a l]; [reflexivity|]. rewrite two_sq_cons. simpl. intros ->. reflexivity. Qed.

Lemma starts_nosq (l X : list N) : l <> [] -> Forall (fun x => x <> SQ) l -> starts_sq (l ++ X) = false.
Proof.
  intros NE F. destruct l as [|h t]; [congruence|]. inversion F; subst.
  apply N.eqb_neq. assumption.
Qed.

Lemma step_esc2 isb q f e v rest :
  In (e, v) [(BS, BS); (SQ, SQ); (DQ, DQ); (110, NL); (114, CR); (116, TAB)] ->
  eval_body isb (qo q) (S f) (BS :: e :: rest) = option_map (cons v) (eval_body isb (qo q) f rest).
Proof.
  intro H. simpl in H. destruct q as [[|]|];
    repeat (destruct H as [H|H]; [injection H as <- <-; reflexivity|]); contradiction.
Qed.

Lemma step_continuation isb q f rest :
  eval_body isb (qo q) (S f) (BS :: NL :: rest) = eval_body isb (qo q) f rest.
Proof. destruct q as [[|]|]; reflexivity. Qed.

Lemma step_hex isb q f e n c rest : c < 16 ^ N.of_nat n ->
  (e = 120 /\ n = 2%nat) \/ (isb = false /\ e = 117 /\ n = 4%nat) \/ (isb = false /\ e = 85 /\ n = 8%nat) ->
  eval_body isb (qo q) (S f) (BS :: e :: hex n c ++ rest) = option_map (cons c) (eval_body isb (qo q) f rest).
Proof.
  intros L H. pose proof (firstn_hex n c rest) as F. pose proof (skipn_hex n c rest) as K.
  assert (U : unhex 0 (hex n c) = Some c) by (rewrite (unhex_hex n c 0 L); reflexivity).
  assert (G : Nat.ltb (length (hex n c ++ rest)) n = false).
  { apply Nat.ltb_ge. rewrite app_length, hex_length. lia. }
  (* three kinds of literal times three escape letters: every branch reads the same firstn, skipn and unhex *)
  destruct q as [[|]|]; destruct H as [[-> ->]|[[-> [-> ->]]|[-> [-> ->]]]];
    cbn -[firstn skipn unhex Nat.ltb length app hex]; rewrite G, F, K, U; reflexivity.
Qed.

Lemma step_raw isb q f c rest : c <> BS -> (isb = true -> c < 128) ->
  match q with
  | Some d => c <> qch d /\ c <> NL
  | None => N.eqb c SQ && two_sq rest = false
  end ->
  eval_body isb (qo q) (S f) (c :: rest) = option_map (cons c) (eval_body isb (qo q) f rest).
Proof.
  intros Hb Hc Hq. cbn [eval_body].
  apply N.eqb_neq in Hb. rewrite Hb.
  assert (B : isb && negb (c <? 128) = false).
  { destruct isb; [|reflexivity]. rewrite (proj2 (N.ltb_lt _ _) (Hc eq_refl)). reflexivity. }
  rewrite B. destruct q as [d|]; cbn [option_map].
  - destruct Hq as [H1 H2]. apply N.eqb_neq in H1, H2. rewrite H1, H2. reflexivity.
  - unfold two_sq in Hq. rewrite Hq, andb_false_r. reflexivity.
Qed.

Lemma eval_lit_single (isb d : bool) (body : list N) : (d = false -> two_sq body = false) ->
  eval_lit ((if isb then [98] else [] : list N) ++ qch d :: body)
  = option_map (pair isb) (eval_body isb (qo (Some d)) (S (length body)) body).
Proof.
  intro H. destruct d, isb; unfold eval_lit; cbn -[eval_body]; try reflexivity;
    specialize (H eq_refl); unfold two_sq in H; rewrite H; reflexivity.
Qed.

Lemma eval_lit_triple (isb : bool) (body : list N) :
  eval_lit ((if isb then [98] else [] : list N) ++ SQ :: SQ :: SQ :: BS :: NL :: body)
  = option_map (pair isb) (eval_body isb None (S (S (S (S (S (length body)))))) (BS :: NL :: body)).
Proof. destruct isb; reflexivity. Qed.

Lemma flat_map_length_ge {A B} (f : A -> list B) l : (forall x, f x <> []) -> (length l <= length (flat_map f l))%nat.
Proof.
  intro NE. induction l as [|x l IH]; simpl; [lia|]. rewrite app_length.
  specialize (NE x). destruct (f x); [congruence|]. simpl. lia.
Qed.

Lemma join_cons (sep l : list N) rest : rest <> [] -> join sep (l :: rest) = (l ++ sep ++ join sep rest)%list.
Proof. destruct rest; [congruence|reflexivity]. Qed.

Lemma split_on_nonempty sep s : forall cur, split_on sep s cur <> [].
Proof. induction s as [|c r IH]; intro cur; simpl; [discriminate|]. destruct (c =? sep); [discriminate|apply IH]. Qed.

Lemma skipn_add {A} (a b : list A) k : skipn (length a + k) (a ++ b) = skipn k b.
Proof. induction a; simpl; auto. Qed.

Section Roundtrip.
  Variable isb : bool.
  Variable nonprint : N -> bool.
  Notation esc := (esc isb nonprint).
  Notation rawc := (rawc isb nonprint).
  Notation esc_ml := (esc_ml isb nonprint).
  Notation body_ml := (body_ml isb nonprint).

  Definition valid (c : N) : Prop := c < (if isb then 256 else 1114112).

  (* one character of a multiline body before the triple-quote pass *)
  Definition e0 (c : N) : list N := esc_ml c false.

  Lemma e0_sq : e0 SQ = [SQ].
  Proof. reflexivity. Qed.
  Definition plain (x : N) : Prop := x <> BS /\ x <> SQ /\ x <> DQ.
  Definition decodes (tk : list N) (c : N) : Prop :=
    forall q f rest,
      eval_body isb (qo q) (S f) (tk ++ rest) = option_map (cons c) (eval_body isb (qo q) f rest).

  Lemma hexdigit_plain d : d < 16 -> plain (hexdigit d).
  Proof.
    unfold hexdigit, plain, BS, SQ, DQ. intro H. destruct (d <? 10) eqn:E.
    - apply N.ltb_lt in E. repeat split; lia.
    - apply N.ltb_ge in E. repeat split; lia.
  Qed.

  Lemma hex_plain n : forall c, Forall plain (hex n c).
  Proof.
    induction n as [|n IH]; intro c; simpl; [constructor|].
    apply Forall_app. split; [apply IH|]. constructor; [|constructor].
    apply hexdigit_plain. apply N.mod_lt. discriminate.
  Qed.

  Definition escape (c : N) (e : N) (t : list N) : Prop :=
    Forall plain (e :: t) /\ (valid c -> decodes (BS :: e :: t) c).

  Lemma hexesc_shape c : exists e t, hexesc isb c = BS :: e :: t /\ escape c e t.
  Proof.
    assert (P : forall e n, e = 120 \/ e = 117 \/ e = 85 -> Forall plain (e :: hex n c)).
    { intros e n He. constructor; [|apply hex_plain]. unfold plain, BS, SQ, DQ. lia. }
    unfold hexesc, escape, valid. destruct (isb || (c <? 256)) eqn:E1; [|destruct (c <? 65536) eqn:E2].
    - (* \xNN *)
      exists 120, (hex 2 c). split; [reflexivity|]. split; [apply P; auto|]. intros V q f rest.
      apply step_hex; [|left; auto]. destruct isb; [exact V|apply N.ltb_lt; exact E1].
    - (* \uNNNN *)
      exists 117, (hex 4 c). split; [reflexivity|]. split; [apply P; auto|]. intros V q f rest.
      apply orb_false_iff in E1 as [-> _]. apply step_hex; [|right; left; auto].
      apply N.ltb_lt. exact E2.
    - (* \UNNNNNNNN *)
      exists 85, (hex 8 c). split; [reflexivity|]. split; [apply P; auto|]. intros V q f rest.
      apply orb_false_iff in E1 as [-> _]. apply step_hex; [|right; right; auto].
      change (16 ^ N.of_nat 8) with 4294967296. lia.
  Qed.

  Lemma letter_escape e c : In (e, c) [(114, CR); (116, TAB)] -> escape c e [].
  Proof.
    intro H. split.
    - constructor; [|constructor]. simpl in H. unfold plain.
      destruct H as [H|[H|[]]]; injection H as <- <-; repeat split; discriminate.
    - intros _ q f rest. apply step_esc2. simpl in *. tauto.
  Qed.

  Lemma e0_cases c :
    (c = BS /\ e0 c = [BS; BS])
    \/ (c <> BS /\ e0 c = [c] /\ (isb = true -> c < 128))
    \/ (exists e t, e0 c = BS :: e :: t /\ escape c e t).
  Proof.
    assert (Q : forall x, x = SQ \/ x = DQ \/ x = NL -> x <> BS /\ e0 x = [x] /\ (isb = true -> x < 128)).
    { intros x [->|[->| ->]]; repeat split; discriminate. }
    unfold e0, TextRepr.esc_ml, TextRepr.esc.
    destruct (N.eqb_spec c SQ) as [->|_]; [right; left; apply Q; auto|].
    destruct (N.eqb_spec c DQ) as [->|_]; [right; left; apply Q; auto|].
    destruct (N.eqb_spec c NL) as [->|_]; [right; left; apply Q; auto|].
    destruct (N.eqb_spec c BS) as [->|B1]; [left; auto|].
    destruct (N.eqb_spec c TAB) as [->|_].
    { right; right. exists 116, []. split; [reflexivity|apply letter_escape; simpl; auto]. }
    destruct (N.eqb_spec c CR) as [->|_].
    { right; right. exists 114, []. split; [reflexivity|apply letter_escape; simpl; auto]. }
    destruct (rawc c) eqn:R; [|right; right; apply hexesc_shape].
    right; left. repeat split; [exact B1|]. intros ->. unfold TextRepr.rawc in R.
    destruct (c <? 128) eqn:E; [apply N.ltb_lt; exact E|discriminate].
  Qed.

  Lemma e0_nonempty c : e0 c <> [].
  Proof.
    destruct (e0_cases c) as [[_ E]|[[_ [E _]]|[e [t [E _]]]]]; rewrite E; discriminate.
  Qed.

  Lemma plain_nosq l : Forall plain l -> Forall (fun x => x <> SQ) l.
  Proof. apply Forall_impl. intros x [_ [H _]]. exact H. Qed.

  Lemma e0_nosq c : c <> SQ -> Forall (fun x => x <> SQ) (e0 c).
  Proof.
    intro S1. destruct (e0_cases c) as [[_ E]|[[_ [E _]]|[e [t [E [P _]]]]]]; rewrite E.
    - repeat constructor; discriminate.
    - repeat constructor. exact S1.
    - constructor; [discriminate|apply plain_nosq; exact P].
  Qed.

  Lemma e0_start c X : c <> SQ -> starts_sq (e0 c ++ X) = false.
  Proof. intro S1. apply starts_nosq; [apply e0_nonempty|apply e0_nosq; exact S1]. Qed.

  Lemma eval_e0 q f c rest : valid c ->
    match q with
    | Some d => c <> qch d /\ c <> NL
    | None => N.eqb c SQ && two_sq rest = false
    end ->
    eval_body isb (qo q) (S f) (e0 c ++ rest) = option_map (cons c) (eval_body isb (qo q) f rest).
  Proof.
    intros V Hq. destruct (e0_cases c) as [[-> ->]|[[Hb [-> Hc]]|[e [t [-> [_ D]]]]]].
    - apply step_esc2. simpl; auto.
    - apply step_raw; assumption.
    - apply D. exact V.
  Qed.

  (* inside '...' or "..." only the quote itself and the newline differ from [e0] *)
  Lemma esc_nl d : esc (qch d) NL = [BS; 110].
  Proof. destruct d; reflexivity. Qed.

  Lemma esc_e0 d c : c <> NL -> esc (qch d) c = if N.eqb c (qch d) then [BS; qch d] else e0 c.
  Proof.
    intros N1. unfold e0, TextRepr.esc_ml, TextRepr.esc. apply N.eqb_neq in N1. rewrite N1.
    destruct (N.eqb_spec c SQ) as [->|S1]; [destruct d; reflexivity|].
    destruct (N.eqb_spec c DQ) as [->|D1]; [destruct d; reflexivity|].
    apply N.eqb_neq in S1, D1. destruct d; unfold qch; rewrite ?S1, ?D1; reflexivity.
  Qed.

  Lemma esc_nonempty d c : esc (qch d) c <> [].
  Proof.
    destruct (N.eq_dec c NL) as [->|N1]; [rewrite esc_nl; discriminate|].
    rewrite esc_e0 by assumption. destruct (N.eqb c (qch d)); [discriminate|apply e0_nonempty].
  Qed.

  Lemma esc_ml_e0 c fl : c <> SQ -> esc_ml c fl = e0 c.
  Proof. intro S1. unfold e0, TextRepr.esc_ml. apply N.eqb_neq in S1. rewrite S1. reflexivity. Qed.

  Lemma eval_esc_single d f c rest : valid c ->
    eval_body isb (qo (Some d)) (S f) (esc (qch d) c ++ rest)
    = option_map (cons c) (eval_body isb (qo (Some d)) f rest).
  Proof.
    intros V. destruct (N.eq_dec c NL) as [->|N1].
    { rewrite esc_nl. apply step_esc2. simpl; auto. }
    rewrite esc_e0 by assumption. destruct (N.eqb_spec c (qch d)) as [->|Hne].
    - apply step_esc2. destruct d; simpl; auto.
    - apply eval_e0; [exact V|split; assumption].
  Qed.

  Lemma single_body d s : Forall valid s ->
    forall f, (length s < f)%nat -> eval_body isb (qo (Some d)) f (flat_map (esc (qch d)) s ++ [qch d]) = Some s.
  Proof.
    induction 1 as [|c s V _ IH]; intros f Hf.
    - destruct f as [|f]; [lia|]. simpl. rewrite N.eqb_refl. reflexivity.
    - destruct f as [|f]; [simpl in Hf; lia|]. simpl flat_map. rewrite <- app_assoc.
      rewrite (eval_esc_single d f c _ V), IH; [reflexivity|simpl in Hf; lia].
  Qed.

  (* what follows the opening ' is not taken for the rest of a triple quote *)
  Lemma esc_sq_start c X : starts_sq (esc SQ c ++ X) = false.
  Proof.
    destruct (N.eq_dec c NL) as [->|N1]; [reflexivity|].
    rewrite (esc_e0 false c N1 : esc SQ c = _). change (qch false) with SQ.
    destruct (N.eqb_spec c SQ) as [->|S1]; [reflexivity|apply e0_start; exact S1].
  Qed.

  Theorem repr_roundtrip s : Forall valid s -> eval_lit (repr isb nonprint s) = Some (isb, s).
  Proof.
    intro V. unfold repr, quote_for. generalize (memN SQ s && negb (memN DQ s)). intro d. fold (qch d).
    unfold prefix.
    change ([qch d] ++ flat_map (esc (qch d)) s ++ [qch d]) with (qch d :: (flat_map (esc (qch d)) s ++ [qch d])).
    rewrite (eval_lit_single isb d).
    - rewrite single_body; [reflexivity|exact V|].
      pose proof (flat_map_length_ge (esc (qch d)) s (esc_nonempty d)) as L.
      rewrite app_length. simpl. lia.
    - intros ->. destruct s as [|c s]; [reflexivity|].
      simpl flat_map. rewrite <- app_assoc. apply two_sq_not_start, esc_sq_start.
  Qed.

  (* multiline: a quote stands raw unless two more follow, so only the three closing quotes end the literal *)
  Lemma eval_esc_ml f c fl rest : valid c ->
    (c = SQ -> fl = false -> two_sq rest = false) ->
    eval_body isb None (S f) (esc_ml c fl ++ rest) = option_map (cons c) (eval_body isb None f rest).
  Proof.
    intros V Hrest. destruct (N.eq_dec c SQ) as [->|S1].
    - destruct fl.
      + apply (step_esc2 isb None). simpl; auto.
      + apply (eval_e0 None); [exact V|]. rewrite Hrest; reflexivity.
    - rewrite esc_ml_e0 by exact S1. apply (eval_e0 None); [exact V|].
      apply N.eqb_neq in S1. rewrite S1. reflexivity.
  Qed.

  Lemma esc_ml_nonempty c fl : esc_ml c fl <> [].
  Proof.
    destruct (N.eq_dec c SQ) as [->|S1]; [destruct fl; discriminate|].
    rewrite esc_ml_e0 by exact S1. apply e0_nonempty.
  Qed.

  Lemma body_ml_length l : (length l <= length (body_ml l))%nat.
  Proof.
    induction l as [|x l IH]; simpl; [lia|]. rewrite app_length.
    pose proof (esc_ml_nonempty x (flag x l)) as NE. destruct (esc_ml x (flag x l)); [congruence|]. simpl. lia.
  Qed.

  Lemma flag_false_rest a b t : N.eqb a SQ && N.eqb b SQ = false ->
    two_sq (body_ml (a :: b :: t) ++ [SQ]) = false.
  Proof.
    intro H. simpl TextRepr.body_ml. rewrite <- !app_assoc.
    destruct (N.eqb_spec a SQ) as [->|Sa].
    - simpl in H. apply N.eqb_neq in H.
      assert (Fl : flag SQ (b :: t) = false).
      { unfold flag. apply N.eqb_neq in H. destruct t; simpl; rewrite ?H; reflexivity. }
      rewrite Fl, (esc_ml_e0 b _ H). change (esc_ml SQ false) with [SQ]. simpl app.
      rewrite two_sq_cons, e0_start by exact H. reflexivity.
    - apply two_sq_not_start. rewrite esc_ml_e0 by exact Sa. apply e0_start. exact Sa.
  Qed.

  Lemma ml_body s : Forall valid s ->
    forall f, (length s < f)%nat -> eval_body isb None f (body_ml (s ++ [SQ; SQ]) ++ [SQ]) = Some s.
  Proof.
    induction 1 as [|c s V _ IH]; intros f Hf.
    - destruct f as [|f]; [lia|]. reflexivity.
    - destruct f as [|f]; [simpl in Hf; lia|].
      change ((c :: s) ++ [SQ; SQ]) with (c :: (s ++ [SQ; SQ])).
      assert (E : exists a b t, s ++ [SQ; SQ] = a :: b :: t) by (destruct s as [|x [|y s']]; simpl; eauto).
      destruct E as [a [b [t E]]]. specialize (IH f). rewrite E in *.
      change (body_ml (c :: a :: b :: t)) with (esc_ml c (flag c (a :: b :: t)) ++ body_ml (a :: b :: t)).
      rewrite <- app_assoc. rewrite eval_esc_ml; [rewrite IH; [reflexivity|simpl in Hf; lia]|exact V|].
      intros -> Hfl. apply flag_false_rest. exact Hfl.
  Qed.

  Theorem tok_roundtrip s ml : Forall valid s -> eval_lit (text_repr_tok isb nonprint s ml) = Some (isb, s).
  Proof.
    intro V. unfold text_repr_tok.
    destruct (negb match ml with Some b => b | None => memN NL s end); [apply repr_roundtrip; exact V|].
    set (body := body_ml (s ++ [SQ; SQ]) ++ [SQ]).
    assert (L : (length s < length body)%nat).
    { subst body. pose proof (body_ml_length (s ++ [SQ; SQ])) as H. rewrite !app_length in *. simpl in *. lia. }
    unfold prefix. change ([SQ; SQ; SQ; BS; NL] ++ body) with (SQ :: SQ :: SQ :: BS :: NL :: body).
    rewrite eval_lit_triple, (step_continuation isb None).
    subst body. rewrite ml_body; [reflexivity|exact V|lia].
  Qed.

  (* (i) str.replace of backslash+quote never matches across an escape boundary, so after split / repr / slice /
     replace / join every quote stands raw and every other character as repr escapes it;
     (ii) the find / insert / p += 2 loop puts a backslash exactly before the single quotes that are followed by
     two more, within its fuel. *)

  Definition headnq (q : N) (R : list N) : Prop := match R with [] => True | y :: _ => y <> q end.

  Lemma replace2_other q x R : x <> BS -> replace2 BS q (x :: R) = x :: replace2 BS q R.
  Proof.
    intro H. apply N.eqb_neq in H. destruct R as [|y t]; simpl; [reflexivity|]. rewrite H. reflexivity.
  Qed.

  Lemma replace2_bs q R : headnq q R -> replace2 BS q (BS :: R) = BS :: replace2 BS q R.
  Proof.
    destruct R as [|y t]; simpl; intro H; [reflexivity|]. apply N.eqb_neq in H. rewrite H, ?andb_false_r. reflexivity.
  Qed.

  Lemma replace2_hit q R : replace2 BS q (BS :: q :: R) = q :: replace2 BS q R.
  Proof. simpl. rewrite !N.eqb_refl. reflexivity. Qed.

  Lemma replace2_plain q l : Forall plain l -> forall R, replace2 BS q (l ++ R) = l ++ replace2 BS q R.
  Proof.
    induction 1 as [|x l [H _] _ IH]; intro R; [reflexivity|].
    change ((x :: l) ++ R)%list with (x :: (l ++ R))%list. rewrite replace2_other by exact H. rewrite IH. reflexivity.
  Qed.

  Lemma replace2_e0 d c R : headnq (qch d) R ->
    replace2 BS (qch d) (e0 c ++ R) = (e0 c ++ replace2 BS (qch d) R)%list.
  Proof.
    intros HR. destruct (e0_cases c) as [[_ E]|[[Hb [E _]]|[e [t [E [P _]]]]]]; rewrite E; simpl app.
    - rewrite replace2_bs by (destruct d; discriminate). rewrite replace2_bs by exact HR. reflexivity.
    - apply replace2_other. exact Hb.
    - rewrite replace2_bs.
      + change (e :: t ++ R)%list with ((e :: t) ++ R)%list. rewrite replace2_plain by exact P. reflexivity.
      + destruct (Forall_inv P) as [_ [Hs Hd]]. destruct d; assumption.
  Qed.

  Lemma headnq_esc d c X : headnq (qch d) (esc (qch d) c ++ X).
  Proof.
    assert (QB : BS <> qch d) by (destruct d; discriminate).
    destruct (N.eq_dec c NL) as [->|N1]; [rewrite esc_nl; exact QB|].
    rewrite esc_e0 by assumption. destruct (N.eqb_spec c (qch d)) as [->|Hne]; [exact QB|].
    destruct (e0_cases c) as [[_ E]|[[_ [E _]]|[e [t [E _]]]]]; rewrite E; simpl; assumption.
  Qed.

  Lemma replace2_esc d c R : c <> NL -> headnq (qch d) R ->
    replace2 BS (qch d) (esc (qch d) c ++ R) = (e0 c ++ replace2 BS (qch d) R)%list.
  Proof.
    intros NNL HR. rewrite esc_e0 by assumption. destruct (N.eqb_spec c (qch d)) as [->|Hne].
    - simpl app. rewrite replace2_hit. destruct d; reflexivity.
    - apply replace2_e0; assumption.
  Qed.

  Lemma replace2_line d line : ~ In NL line ->
    replace2 BS (qch d) (flat_map (esc (qch d)) line) = flat_map e0 line.
  Proof.
    induction line as [|c r IH]; intro H; [reflexivity|].
    simpl flat_map. rewrite replace2_esc; [| |].
    - rewrite IH; [reflexivity|]. intro X; apply H; right; exact X.
    - intro X. apply H. left. auto.
    - destruct r as [|c' r]; [exact I|]. apply headnq_esc.
  Qed.

  Lemma line_body_eq line : ~ In NL line -> line_body isb nonprint line = flat_map e0 line.
  Proof.
    intro H. unfold line_body, repr, quote_for.
    generalize (memN SQ line && negb (memN DQ line)). intro d. fold (qch d).
    set (q := qch d). set (body := flat_map (esc q) line).
    replace (prefix isb ++ [q] ++ body ++ [q])%list with (((prefix isb ++ [q]) ++ body) ++ [q])%list
      by (rewrite <- !app_assoc; reflexivity).
    rewrite last_last, removelast_last.
    replace (length (prefix isb) + 1)%nat with (length (prefix isb ++ [q])) by (rewrite app_length; reflexivity).
    rewrite skipn_exact. apply replace2_line. exact H.
  Qed.

  Lemma lines_eq s : forall cur, ~ In NL cur ->
    join [NL] (map (line_body isb nonprint) (split_on NL s cur)) = flat_map e0 (rev cur ++ s).
  Proof.
    induction s as [|c r IH]; intros cur H; simpl split_on.
    - simpl. rewrite app_nil_r. apply line_body_eq. intro X. apply H. apply in_rev. exact X.
    - destruct (c =? NL) eqn:E.
      + apply N.eqb_eq in E. subst c. simpl map. rewrite join_cons.
        * rewrite line_body_eq by (intro X; apply H; apply in_rev; exact X).
          rewrite (IH [] (fun x => x)). change (rev [] ++ r)%list with r. rewrite flat_map_app. reflexivity.
        * intro X. apply map_eq_nil in X. exact (split_on_nonempty _ _ _ X).
      + apply N.eqb_neq in E. rewrite IH.
        * simpl rev. rewrite <- app_assoc. reflexivity.
        * intros [X|X]; [apply E; auto|apply H; exact X].
  Qed.

  Lemma find3_short r : (length r < 3)%nat -> find3 r = None.
  Proof. destruct r as [|a [|b [|c t]]]; simpl; intro H; try reflexivity. lia. Qed.

  Lemma find3_skip x rest : flag x rest = false -> find3 (x :: rest) = option_map S (find3 rest).
  Proof.
    destruct rest as [|b [|c t]]; [reflexivity|reflexivity|]. unfold flag. simpl. intro H.
    rewrite <- andb_assoc, H. reflexivity.
  Qed.

  Lemma find3_hit R : two_sq R = true -> find3 (SQ :: R) = Some O.
  Proof. destruct R as [|a [|b t]]; simpl; try discriminate. intros ->. reflexivity. Qed.

  Lemma find3_nosq tk R : Forall (fun x => x <> SQ) tk ->
    find3 (tk ++ R) = option_map (Nat.add (length tk)) (find3 R).
  Proof.
    induction 1 as [|x tk H _ IH]; simpl app; [destruct (find3 R); reflexivity|].
    rewrite find3_skip, IH by (unfold flag; apply N.eqb_neq in H; rewrite H; reflexivity).
    destruct (find3 R); reflexivity.
  Qed.

  Lemma starts_flat r : starts_sq (flat_map e0 r) = starts_sq r.
  Proof.
    destruct r as [|a r]; [reflexivity|]. simpl flat_map.
    destruct (N.eqb_spec a SQ) as [->|S1]; [reflexivity|].
    rewrite e0_start by exact S1. symmetry. apply N.eqb_neq. exact S1.
  Qed.

  Lemma two_flat r : two_sq (flat_map e0 r) = two_sq r.
  Proof.
    destruct r as [|a r]; [reflexivity|]. simpl flat_map. rewrite (two_sq_cons a).
    destruct (N.eqb_spec a SQ) as [->|S1].
    - rewrite e0_sq. simpl app. rewrite two_sq_cons, starts_flat. reflexivity.
    - apply two_sq_not_start, e0_start. exact S1.
  Qed.

  (* text in which no triple starts is moved to the finished part without an iteration *)
  Lemma loop_shift fuel done tk R :
    find3 (tk ++ R) = option_map (Nat.add (length tk)) (find3 R) ->
    triple_loop fuel done (tk ++ R) = triple_loop fuel (rev tk ++ done) R.
  Proof.
    assert (E : (rev done ++ tk ++ R = rev (rev tk ++ done) ++ R)%list)
      by (rewrite rev_app_distr, rev_involutive, app_assoc; reflexivity).
    intro H. destruct fuel as [|f]; simpl; [exact E|]. rewrite H.
    destruct (find3 R) as [k|]; simpl option_map; cbv iota; [|exact E].
    rewrite skipn_add, firstn_app_2, rev_app_distr, <- !app_assoc. reflexivity.
  Qed.

  (* each iteration escapes one quote, so one unit of fuel per character is enough *)
  Lemma loop_body_ml l : forall fuel done, (length l <= fuel)%nat ->
    triple_loop fuel done (flat_map e0 l) = (rev done ++ body_ml l)%list.
  Proof.
    induction l as [|c r IH]; intros fuel done L.
    - destruct fuel; reflexivity.
    - simpl in L. simpl flat_map. simpl TextRepr.body_ml. destruct (N.eq_dec c SQ) as [->|S1].
      + rewrite e0_sq. change (flag SQ r) with (two_sq r). simpl app.
        destruct (two_sq r) eqn:T.
        * (* the first of three quotes: one iteration *)
          destruct fuel as [|f]; [lia|]. rewrite <- two_flat in T.
          remember (flat_map e0 r) as R eqn:ER. cbn [triple_loop]. rewrite (find3_hit R T). simpl.
          subst R. rewrite (IH f) by lia. simpl. rewrite <- !app_assoc. reflexivity.
        * assert (F : find3 ([SQ] ++ flat_map e0 r) = option_map (Nat.add 1) (find3 (flat_map e0 r))).
          { simpl app. rewrite find3_skip; [destruct (find3 _); reflexivity|].
            change (two_sq (flat_map e0 r) = false). rewrite two_flat. exact T. }
          change (SQ :: flat_map e0 r) with ([SQ] ++ flat_map e0 r)%list.
          rewrite (loop_shift _ _ _ _ F), (IH fuel) by lia. simpl. rewrite <- app_assoc. reflexivity.
      + rewrite esc_ml_e0 by exact S1.
        rewrite (loop_shift _ _ _ _ (find3_nosq _ _ (e0_nosq c S1))), (IH fuel) by lia.
        rewrite rev_app_distr, rev_involutive, <- app_assoc. reflexivity.
  Qed.

  Theorem lit_eq_tok s ml : text_repr_lit isb nonprint s ml = text_repr_tok isb nonprint s ml.
  Proof.
    unfold text_repr_lit, text_repr_tok.
    destruct (negb (match ml with Some b => b | None => memN NL s end)); [reflexivity|].
    rewrite (lines_eq s [] (fun x => x)). simpl rev. simpl app at 1.
    replace (flat_map e0 s ++ [SQ; SQ])%list with (flat_map e0 (s ++ [SQ; SQ]))
      by (rewrite flat_map_app; reflexivity).
    rewrite loop_body_ml; [reflexivity|].
    pose proof (flat_map_length_ge e0 (s ++ [SQ; SQ]) e0_nonempty). lia.
  Qed.
End Roundtrip.
