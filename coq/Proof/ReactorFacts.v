(* The delayed-call queue of Model/Reactor.v: cancelling by handle (remove_seq) and which call the reactor runs next
   (min_time, choose, pop_from, pop_next).  Used by C14 and C15. *)
From TT Require Import Lib.Base Model.Reactor.

Section Queue.
  Context {A : Type}.
  Implicit Types (q : list (dcall A)) (c : dcall A) (r : reactor A).

  Lemma in_remove_seq s q c : In c (remove_seq s q) <-> In c q /\ dc_seq c <> s.
  Proof. unfold remove_seq. rewrite filter_In, negb_true_iff, Nat.eqb_neq. reflexivity. Qed.

  Lemma incl_remove_seq s q : incl (remove_seq s q) q.
  Proof. apply incl_filter. Qed.

  Lemma remove_seq_length s q : length (remove_seq s q) <= length q.
  Proof.
    induction q as [|a r IH]; simpl; [apply Nat.le_refl|].
    destruct (negb (Nat.eqb (dc_seq a) s)); simpl; [apply le_n_S | apply Nat.le_le_succ_r]; exact IH.
  Qed.

  Lemma remove_seq_length_lt q c : In c q -> length (remove_seq (dc_seq c) q) < length q.
  Proof.
    induction q as [|a r IH]; simpl; [intros []|]. intros [->|Hin].
    - rewrite Nat.eqb_refl. simpl. apply Nat.lt_succ_r, remove_seq_length.
    - specialize (IH Hin). destruct (negb (Nat.eqb (dc_seq a) (dc_seq c))); simpl.
      + apply -> Nat.succ_lt_mono. exact IH.
      + apply Nat.lt_lt_succ_r. exact IH.
  Qed.

  Lemma remove_seq_notin s q : ~ In s (map dc_seq q) -> remove_seq s q = q.
  Proof.
    induction q as [|a r IH]; simpl; intro H; [reflexivity|].
    destruct (Nat.eqb (dc_seq a) s) eqn:E.
    - apply Nat.eqb_eq in E. exfalso; apply H; left; exact E.
    - simpl. f_equal. apply IH. intro Hi; apply H; right; exact Hi.
  Qed.

  Lemma nodup_remove_seq s q : NoDup (map dc_seq q) -> NoDup (map dc_seq (remove_seq s q)).
  Proof.
    induction q as [|a r IH]; simpl; intro H; [constructor|].
    inversion H as [|? ? Hn Hr]; subst. destruct (negb (Nat.eqb (dc_seq a) s)); simpl; [|apply IH; exact Hr].
    constructor; [|apply IH; exact Hr]. intro Hi. apply Hn.
    apply in_map_iff in Hi as [b [Eb Hb]]. apply in_remove_seq in Hb as [Hb _].
    apply in_map_iff. exists b; split; assumption.
  Qed.

  Lemma nodup_seq_inj q a b : NoDup (map dc_seq q) -> In a q -> In b q -> dc_seq a = dc_seq b -> a = b.
  Proof.
    induction q as [|c r IH]; simpl; intros H Ha Hb E; [destruct Ha|].
    inversion H as [|? ? Hn Hr]; subst.
    destruct Ha as [->|Ha], Hb as [->|Hb]; [reflexivity| | |apply IH; assumption].
    - exfalso. apply Hn. rewrite E. apply in_map; exact Hb.
    - exfalso. apply Hn. rewrite <- E. apply in_map; exact Ha.
  Qed.

  Lemma remove_seq_split q c : NoDup (map dc_seq q) -> In c q ->
    exists l1 l2, q = l1 ++ c :: l2 /\ remove_seq (dc_seq c) q = l1 ++ l2.
  Proof.
    intros Hn Hin. destruct (in_split c q Hin) as [l1 [l2 ->]].
    exists l1, l2. split; [reflexivity|].
    rewrite map_app in Hn. simpl in Hn. pose proof (NoDup_remove_2 _ _ _ Hn) as Hni.
    unfold remove_seq. rewrite filter_app. simpl. rewrite Nat.eqb_refl. simpl.
    fold (remove_seq (dc_seq c) l1). fold (remove_seq (dc_seq c) l2).
    rewrite !remove_seq_notin; [reflexivity| |]; intro H; apply Hni; apply in_or_app; [right|left]; exact H.
  Qed.

  Lemma cancel_all (l : list (dcall A)) : forall q,
    incl q l -> fold_left (fun q' c => remove_seq (dc_seq c) q') l q = [].
  Proof.
    induction l as [|a l IH]; intros q H; simpl.
    - destruct q as [|c q]; [reflexivity | destruct (H c); left; reflexivity].
    - apply IH. intros c Hc. apply in_remove_seq in Hc as [Hc Hs].
      destruct (H c Hc) as [<-|Hl]; [congruence | exact Hl].
  Qed.

  Lemma min_time_spec q m : min_time q = Some m ->
    (exists c, In c q /\ dc_time c = m) /\ forall c, In c q -> m <= dc_time c.
  Proof.
    revert m; induction q as [|c r IH]; simpl; intros m H; [discriminate|].
    injection H as <-. destruct (min_time r) as [m'|] eqn:E.
    - destruct (IH m' eq_refl) as [[c0 [Hin Ht]] Hle]. split.
      + destruct (Nat.min_spec (dc_time c) m') as [[_ ->]|[_ ->]].
        * exists c; split; [left|]; reflexivity.
        * exists c0; split; [right; exact Hin | exact Ht].
      + intros c' [->|Hc']; [apply Nat.le_min_l|].
        eapply Nat.le_trans; [apply Nat.le_min_r | apply Hle, Hc'].
    - destruct r; [|discriminate E]. split.
      + exists c; split; [left|]; reflexivity.
      + intros c' [->|[]]. apply Nat.le_refl.
  Qed.

  Lemma choose_in orc (cands : list (dcall A)) c orc' : choose orc cands = Some (c, orc') -> In c cands.
  Proof.
    unfold choose. destruct cands as [|c0 [|c1 r]]; [discriminate| |].
    - intro H; injection H as <- _. left; reflexivity.
    - destruct orc as [|k orc0]; intro H; injection H as <- _; [left; reflexivity|].
      exact (nth_In (c0 :: c1 :: r) c0 (Nat.mod_upper_bound k (length (c0 :: c1 :: r)) (Nat.neq_succ_0 _))).
  Qed.

  Lemma pop_from_spec cands r c r' : pop_from cands r = Some (c, r') ->
    In c cands /\ exists nw orc',
      r' = mkReactor nw (nextseq r) (remove_seq (dc_seq c) (queue r)) (hooks r) (readers r) (running r)
                     (really_stopped r) orc'.
  Proof.
    unfold pop_from. destruct (choose (oracle r) cands) as [[c0 orc']|] eqn:E; [|discriminate].
    intro H; injection H as <- <-. split; [eapply choose_in; exact E|].
    eexists; eexists; reflexivity.
  Qed.

  Lemma pop_next_ok r : queue r <> [] ->
    exists c nw orc',
      pop_next r = Some (c, mkReactor nw (nextseq r) (remove_seq (dc_seq c) (queue r)) (hooks r) (readers r)
                                      (running r) (really_stopped r) orc')
      /\ In c (queue r) /\ forall c', In c' (queue r) -> dc_time c <= dc_time c'.
  Proof.
    intro Hne. unfold pop_next, candidates.
    destruct (min_time (queue r)) as [m|] eqn:E; [|destruct (queue r); [congruence | discriminate E]].
    destruct (min_time_spec _ m E) as [[c0 [Hin0 Ht0]] Hmin].
    destruct (pop_from (filter (fun c => Nat.eqb (dc_time c) m) (queue r)) r) as [[c r']|] eqn:Ep.
    - apply pop_from_spec in Ep as [Hin [nw [orc' ->]]]. apply filter_In in Hin as [Hin Ht]. apply Nat.eqb_eq in Ht.
      exists c, nw, orc'. split; [reflexivity|]. split; [exact Hin|].
      intros c' Hc'. rewrite Ht. apply Hmin, Hc'.
    - exfalso. unfold pop_from, choose in Ep.
      assert (Hc : In c0 (filter (fun c => Nat.eqb (dc_time c) m) (queue r)))
        by (apply filter_In; split; [exact Hin0 | apply Nat.eqb_eq; exact Ht0]).
      destruct (filter _ (queue r)) as [|a [|b l]]; [destruct Hc | discriminate Ep | destruct (oracle r); discriminate Ep].
  Qed.

  Lemma pop_at_spec t r c r' : pop_at t r = Some (c, r') ->
    In c (queue r) /\ dc_time c = t /\ exists nw orc',
      r' = mkReactor nw (nextseq r) (remove_seq (dc_seq c) (queue r)) (hooks r) (readers r) (running r)
                     (really_stopped r) orc'.
  Proof.
    unfold pop_at. intro H. apply pop_from_spec in H as [Hin Hr].
    apply filter_In in Hin as [Hin Ht].
    apply Nat.eqb_eq in Ht. repeat split; assumption.
  Qed.
End Queue.
