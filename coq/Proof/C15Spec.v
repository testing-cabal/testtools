(* C15 - lemmas about the statement itself and about the comparison of observations:
   spec_okb implies the readable Spec; robs_eqb is equality. *)
From Coq Require Import Permutation.
From TT Require Import Lib.Base Lib.Count Lib.EqbFacts Lib.ListFacts Lib.Sort Model.Reactor Model.Spinner Gen.Spinnertabs Spec.C15 Corr.C15.

Lemma exc_eqb_spec a b : exc_eqb a b = true <-> a = b.
Proof. destruct a, b; simpl; eqb_components ltac:(apply Nat.eqb_eq). Qed.

Lemma result_eqb_spec a b : result_eqb a b = true <-> a = b.
Proof. apply res_eqb_spec; [apply Nat.eqb_eq | apply exc_eqb_spec]. Qed.

Lemma boollist_eqb_spec a b : list_eqb Bool.eqb a b = true <-> a = b.
Proof. apply list_eqb_spec, bool_eqb_spec. Qed.

Lemma robs_eqb_spec a b : robs_eqb a b = true <-> a = b.
Proof.
  destruct a, b. unfold robs_eqb. simpl.
  eqb_components ltac:(first [apply result_eqb_spec | apply boollist_eqb_spec | apply nats_eqb_spec | apply bool_eqb_spec
                             | apply Nat.eqb_eq]).
Qed.

Lemma has_In t l : has t l = true <-> In t l.
Proof. apply existsb_eqb_In. Qed.

Lemma perm_perm_eqb a b : Permutation a b -> perm_eqb a b = true.
Proof. apply (count_occ_same_perm Nat.eq_dec). Qed.

Lemma fold_min_le {B} (evs : list (nat * B)) d :
  fold_right (fun ev m => Nat.min (fst ev) m) d evs <= d
  /\ forall ev, In ev evs -> fold_right (fun ev m => Nat.min (fst ev) m) d evs <= fst ev.
Proof.
  induction evs as [|e r [IH1 IH2]]; simpl.
  - split; [lia | intros ev []].
  - split; [lia|]. intros ev [->|Hin]; [lia|]. specialize (IH2 ev Hin). lia.
Qed.

Lemma fold_min_in {B} (evs : list (nat * B)) d :
  fold_right (fun ev m => Nat.min (fst ev) m) d evs = d
  \/ In (fold_right (fun ev m => Nat.min (fst ev) m) d evs) (map fst evs).
Proof.
  induction evs as [|e r IH]; simpl; [left; reflexivity|].
  destruct (Nat.min_spec (fst e) (fold_right (fun ev m => Nat.min (fst ev) m) d r)) as [[_ ->]|[_ ->]].
  - right; left; reflexivity.
  - destruct IH as [IH|IH]; [left; exact IH | right; right; exact IH].
Qed.

Lemma earliest_spec evs : evs <> [] ->
  In (earliest evs) (map fst evs) /\ forall ev, In ev evs -> earliest evs <= fst ev.
Proof.
  intro Hne. destruct evs as [|e r]; [congruence|]. unfold earliest. cbn [hd]. unfold time in *.
  split.
  - destruct (fold_min_in (e :: r) (fst e)) as [H|H]; [|exact H]. rewrite H. left; reflexivity.
  - apply fold_min_le.
Qed.

Lemma events_ne T f : events T f <> [].
Proof. unfold events. discriminate. Qed.

(* a Deferred that fires later and one that never fires are judged by the same test *)
Lemma allowed_async_sound early T f order r :
  (if f_stop_now f || early then result_eqb r (Raised ENoResult)
   else let E := crash_toks order in
        negb (Nat.eqb (length E) 0)
        && forallb (fun k => option_eqb Nat.eqb (ev_time T f k) (Some (earliest (events T f)))) E
        && result_eqb r (decided f E)) = true ->
  if f_stop_now f || early then r = Raised ENoResult
  else let E := crash_toks order in
       E <> []
       /\ (forall k, In k E -> exists t, ev_time T f k = Some t /\ In t (map fst (events T f))
                                        /\ forall ev, In ev (events T f) -> t <= fst ev)
       /\ r = decided f E.
Proof.
  destruct (f_stop_now f || early); [apply result_eqb_spec|].
  cbv zeta. intro H.
  apply andb_prop in H as [H H3]. apply andb_prop in H as [H1 H2].
  split; [|split].
  - intro E. rewrite E in H1. discriminate.
  - intros k Hk. rewrite forallb_forall in H2. specialize (H2 k Hk).
    apply option_eqb_spec in H2; [|apply Nat.eqb_eq].
    destruct (earliest_spec (events T f) (events_ne T f)) as [Ha Hb].
    exists (earliest (events T f)). split; [exact H2|]. split; assumption.
  - apply result_eqb_spec. exact H3.
Qed.

Lemma allowed_sound early T f order r : allowed early T f order r = true -> Allowed early T f order r.
Proof.
  unfold allowed, Allowed. destruct (f_shape f) as [how o|t o|].
  - apply result_eqb_spec.
  - apply allowed_async_sound.
  - apply allowed_async_sound.
Qed.

Lemma sigs_sound pre : forall after, sigs_okb pre after = true -> Sigs_ok pre after.
Proof.
  induction pre as [|p pre IH]; intros [|a after]; simpl; intro H; try discriminate; [exact I|].
  apply andb_true_iff in H as [H1 H2]. split; [|apply IH; exact H2].
  apply orb_true_iff in H1 as [H1|H1]; apply Nat.eqb_eq in H1; [left|right]; exact H1.
Qed.

Lemma clean_sound stop0 rs o : clean_okb stop0 rs o = true -> Clean stop0 rs o.
Proof.
  unfold clean_okb, Clean. intro H.
  apply andb_prop in H as [H H6]. apply andb_prop in H as [H H5]. apply andb_prop in H as [H H4].
  apply andb_prop in H as [H H3]. apply andb_prop in H as [H1 H2].
  split; [apply negb_true_iff, H1|].
  split; [apply Nat.eqb_eq, H2|].
  split; [apply Nat.eqb_eq, H3|].
  split; [apply Nat.eqb_eq, H4|].
  split; [apply negb_true_iff, H5 | apply sigs_sound, H6].
Qed.

Lemma run_sound stale stop0 rs o : run_okb stale stop0 rs o = true -> Run_spec stale stop0 rs o.
Proof.
  unfold run_okb, Run_spec. intro H. apply andb_prop in H as [Hc H].
  split; [apply clean_sound, Hc|].
  destruct stale as [|x st].
  -
    apply andb_prop in H as [H H5]. apply andb_prop in H as [H H4]. apply andb_prop in H as [H H3].
    apply andb_prop in H as [H1 H2]. apply andb_prop in H3 as [H3 H3'].
    split; [apply allowed_sound, H1|].
    split; [apply nats_eqb_spec, H2|].
    split; [rewrite forallb_forall in H3; exact H3|].
    split; [apply Nat.leb_le, H3'|].
    split; [apply (count_occ_same Nat.eq_dec), H4|].
    intro Hin. unfold own_junk_okb in H5. apply has_In in Hin. rewrite Hin in H5.
    apply result_eqb_spec, H5.
  -
    apply andb_prop in H as [H H5]. apply andb_prop in H as [H H4]. apply andb_prop in H as [H H3].
    apply andb_prop in H as [H1 H2].
    split; [apply result_eqb_spec, H1|].
    split; [apply nats_eqb_spec, H2|].
    split; [apply nats_eqb_spec, H3|].
    split; [apply nats_eqb_spec, H4 | apply boollist_eqb_spec, H5].
Qed.

Lemma runs_sound rss : forall prev ps os, runs_okb prev ps rss os = true -> Runs_spec prev ps rss os.
Proof.
  induction rss as [|rs rss IH]; intros prev ps [|o os]; simpl; intro H; try discriminate; [exact I|].
  apply andb_true_iff in H as [H1 H2]. split; [apply run_sound; exact H1 | apply IH; exact H2].
Qed.

Lemma spec_okb_sound i o : spec_okb i o = true -> Spec i o.
Proof. apply runs_sound. Qed.
