(* C20 - the equality tests are exact and spec_okb implies Spec; `good`, the invariant of every Deferred a
   history reaches, with its two shapes (idle / ready); what a match and extract_result do in each shape;
   passivity as a simulation between a history and the history without its matches. *)
From TT Require Import Lib.Base Lib.EqbFacts Lib.ListFacts Model.Deferred Model.DeferredMatchers Spec.C20 Corr.C20.

Lemma dres_eqb_spec : forall a b, dres_eqb a b = true <-> a = b.
Proof. intros a b. destruct a, b; simpl; eqb_components ltac:(apply Nat.eqb_eq). Qed.

Lemma dstate_eqb_spec : forall a b, dstate_eqb a b = true <-> a = b.
Proof. intros a b. destruct a, b; simpl; eqb_components ltac:(apply Nat.eqb_eq). Qed.

Lemma xexc_eqb_spec : forall a b, xexc_eqb a b = true <-> a = b.
Proof. intros a b. destruct a, b; simpl; eqb_components ltac:(apply Nat.eqb_eq). Qed.

Lemma cbfun_eqb_spec : forall a b, cbfun_eqb a b = true <-> a = b.
Proof. intros a b. destruct a, b; simpl; eqb_components ltac:(apply Nat.eqb_eq). Qed.

Lemma opout_eqb_spec : forall a b, opout_eqb a b = true <-> a = b.
Proof.
  intros a b. destruct a, b; simpl;
    eqb_components ltac:(first [apply bool_eqb_spec | apply (res_eqb_spec Nat.eqb xexc_eqb Nat.eqb_eq xexc_eqb_spec)]).
Qed.

Lemma uret_eqb_spec : forall a b, uret_eqb a b = true <-> a = b.
Proof. intros a b. destruct a, b; simpl; eqb_components ltac:(first [apply Nat.eqb_eq | apply xexc_eqb_spec]). Qed.

Lemma log_eqb_spec a b : log_eqb a b = true <-> a = b.
Proof. apply list_eqb_spec. apply pair_eqb_spec; [apply Nat.eqb_eq | apply dres_eqb_spec]. Qed.

Lemma inner_eqb_spec : forall a b, inner_eqb a b = true <-> a = b.
Proof.
  induction a as [| |k|a IH|a1 IH1 a2 IH2|a1 IH1 a2 IH2]; intros b; destruct b; simpl;
    eqb_components ltac:(first [apply Nat.eqb_eq | apply IH | apply IH1 | apply IH2]).
Qed.

Lemma matcher_eqb_spec : forall a b, matcher_eqb a b = true <-> a = b.
Proof. intros a b. destruct a, b; simpl; eqb_components ltac:(apply inner_eqb_spec). Qed.

Lemma op_eqb_spec : forall a b, op_eqb a b = true <-> a = b.
Proof.
  intros a b. destruct a, b; simpl;
    eqb_components ltac:(first [apply matcher_eqb_spec | apply Nat.eqb_eq | apply cbfun_eqb_spec | apply dres_eqb_spec]).
Qed.

Lemma ops_eqb_spec a b : list_eqb op_eqb a b = true <-> a = b.
Proof. apply list_eqb_spec, op_eqb_spec. Qed.

Lemma oobs_eqb_spec : forall a b, oobs_eqb a b = true <-> a = b.
Proof.
  intros a b. destruct a, b. unfold oobs_eqb. simpl.
  eqb_components ltac:(first [apply dstate_eqb_spec | apply bool_eqb_spec | apply opout_eqb_spec | apply Nat.eqb_eq]).
Qed.

Lemma hobs_eqb_spec : forall a b, hobs_eqb a b = true <-> a = b.
Proof.
  intros a b. destruct a, b. unfold hobs_eqb. simpl.
  eqb_components ltac:(first [apply (list_eqb_spec oobs_eqb oobs_eqb_spec) | apply log_eqb_spec | apply bool_eqb_spec
                             | apply ops_eqb_spec | apply dstate_eqb_spec]).
Qed.

Lemma sobs_eqb_spec a b : sobs_eqb a b = true <-> sobs_alpha a = sobs_alpha b.
Proof.
  unfold sobs_eqb, sobs_alpha. rewrite !andb_true_iff, !uret_eqb_spec, bool_eqb_spec.
  split; [intros [[-> ->] ->]; reflexivity | intro H; injection H; auto].
Qed.

Lemma op_okb_sound o x : op_okb o x = true -> Op_spec o x.
Proof.
  destruct o as [m| | | | | | |]; simpl; try (intros _; exact I).
  -
    intro H. apply andb_prop in H as [H H4]. apply andb_prop in H as [H H3].
    apply andb_prop in H as [H1 H2].
    split; [apply opout_eqb_spec, H1|].
    split; [apply eqb_prop, H2|].
    split; [apply Nat.eqb_eq, H3|].
    unfold after_okb in H4. destruct (inspects m (p_before x)).
    + destruct (p_after x); try discriminate. eexists; reflexivity.
    + apply dstate_eqb_spec, H4.
  - apply opout_eqb_spec.
Qed.

Theorem spec_okb_sound i o : spec_okb i o = true -> Spec i o.
Proof.
  destruct i as [ops|pos s], o as [h|x]; simpl; try discriminate.
  - unfold hist_okb, Hist_spec. intro H.
    apply andb_prop in H as [H H7]. apply andb_prop in H as [H H6]. apply andb_prop in H as [H H5].
    apply andb_prop in H as [H H4]. apply andb_prop in H as [H H3]. apply andb_prop in H as [H1 H2].
    split; [revert H1; apply forall2b_sound; exact op_okb_sound|].
    split; [apply ops_eqb_spec, H2|].
    split; [apply log_eqb_spec, H3|].
    split; [apply dstate_eqb_spec, H4|].
    split; [apply eqb_prop, H5|].
    split; [apply eqb_prop, H6|].
    (* something unhandled is logged only if the Deferred still holds a failure, or is stuck *)
    intro U. rewrite U in H7. simpl in H7. rewrite orb_false_r in H7.
    apply orb_true_iff in H7 as [H7|H7].
    + right. destruct (final_state (h_ops h)); try discriminate. eexists; reflexivity.
    + left. apply dstate_eqb_spec, H7.
  - unfold sync_okb, Sync_spec. intro H.
    apply andb_prop in H as [H H3]. apply andb_prop in H as [H1 H2].
    split; [apply uret_eqb_spec, H1|]. split; [apply uret_eqb_spec, H2 | apply nats_eqb_spec, H3].
Qed.

(* What every state reached by a history satisfies: a Deferred that can hand out a result
   has handed it to all its callbacks (none are pending) and its DebugInfo remembers exactly
   a Failure result; only a Deferred that was fired can have a Failure on record. *)
Definition good (d : deferred) : Prop :=
  (runnable d = true -> forall x, d_result d = Some x -> d_callbacks d = [] /\ d_debugfail d = is_rerr x)
  /\ (d_debugfail d = true -> d_called d = true).

(* the two shapes of a good Deferred *)
Definition ready (x : dres) : deferred := mkD true (Some x) [] 0 false (is_rerr x).
Definition idle (d : deferred) : Prop := runnable d = false \/ d_result d = None.
Definition with_cb (p : cbpair) (d : deferred) : deferred :=
  mkD (d_called d) (d_result d) (d_callbacks d ++ [p]) (d_paused d) (d_waiting d) (d_debugfail d).

Lemma runnable_fields d : runnable d = true -> d_called d = true /\ d_paused d = 0 /\ d_waiting d = false.
Proof. unfold runnable. rewrite !andb_true_iff, Nat.eqb_eq, negb_true_iff. tauto. Qed.

Lemma good_cases d : good d -> idle d \/ exists x, d = ready x.
Proof.
  intros [G _]. destruct (runnable d) eqn:R; [|left; left; exact R].
  destruct (d_result d) as [x|] eqn:E; [|left; right; exact E].
  right. exists x. destruct (G eq_refl x eq_refl) as [C F].
  destruct (runnable_fields d R) as (A & B & W).
  destruct d; simpl in *; subst; reflexivity.
Qed.

Lemma good_ready x : good (ready x).
Proof. split; simpl; [intros _ y H; injection H as <-; auto | auto]. Qed.

Lemma good_new : good new_deferred.
Proof. split; simpl; [discriminate | discriminate]. Qed.

Lemma state_idle d : idle d -> state_of d = if d_called d then SWaiting else SUnfired.
Proof.
  unfold state_of. destruct (d_called d); simpl; [|reflexivity].
  intros [H|H]; [rewrite H; reflexivity|]. destruct (runnable d); simpl; [rewrite H|]; reflexivity.
Qed.

Lemma state_ready x : state_of (ready x) = match x with RVal v => SVal v | RErr e => SErr e end.
Proof. destruct x; reflexivity. Qed.

Lemma run_cbs_done cbs : forall x lg y rest lg', run_cbs cbs x lg = (Some y, rest, lg') -> rest = [].
Proof.
  induction cbs as [|p r IH]; intros x lg y rest lg' H; simpl in H.
  - injection H as _ <- _. reflexivity.
  - destruct (step_cb p x lg) as [[z|] lg1]; [eapply IH; eauto | discriminate].
Qed.

Lemma run_callbacks_good d lg : (d_debugfail d = true -> d_called d = true) -> good (fst (run_callbacks d lg)).
Proof.
  intro G2. unfold run_callbacks. destruct (runnable d) eqn:R.
  - destruct (d_result d) as [x|] eqn:E.
    + destruct (run_cbs (d_callbacks d) x lg) as [[[y|] rest] lg'] eqn:RC; simpl.
      * split; simpl; [|reflexivity]. intros _ z Hz. injection Hz as <-.
        split; [eapply run_cbs_done; eauto | reflexivity].
      * split; simpl; [discriminate | discriminate].
    + simpl. split; [intros _ x Hx; rewrite E in Hx; discriminate | exact G2].
  - simpl. split; [intro H; rewrite R in H; discriminate | exact G2].
Qed.

Lemma add_callbacks_good p d lg : good d -> good (fst (add_callbacks p d lg)).
Proof. intros [_ G2]. unfold add_callbacks. apply run_callbacks_good. exact G2. Qed.

Lemma run_callbacks_idle d lg : idle d -> run_callbacks d lg = (d, lg).
Proof.
  unfold run_callbacks. intros [H|H]; [rewrite H; reflexivity|].
  destruct (runnable d); [rewrite H|]; reflexivity.
Qed.

Lemma add_callbacks_idle p d lg : idle d -> add_callbacks p d lg = (with_cb p d, lg).
Proof. intro H. unfold add_callbacks. apply run_callbacks_idle. exact H. Qed.

Lemma match_deferred_good m d lg : good d -> good (snd (fst (match_deferred m d lg))).
Proof.
  intro G. unfold match_deferred.
  pose proof (add_callbacks_good (CPass, CPass) d lg G) as G1.
  destruct (add_callbacks (CPass, CPass) d lg) as [d1 lg1]. simpl in G1.
  pose proof (add_callbacks_good (CPass, CConst 0) d1 lg1 G1) as G2.
  destruct (add_callbacks (CPass, CConst 0) d1 lg1) as [d2 lg2]. simpl in G2.
  destruct m; destruct (if runnable d then d_result d1 else None) as [[v|e]|]; simpl; assumption.
Qed.

Lemma step_good o d lg : good d -> good (snd (fst (step o d lg))).
Proof.
  intro G. pose proof G as [G1 G2]. destruct o as [m|v|e|cb eb| | | |x]; simpl.
  - pose proof (match_deferred_good m d lg G) as H.
    destruct (match_deferred m d lg) as [[b d'] lg']. exact H.
  - unfold fire. destruct (d_called d); simpl; [exact G|].
    rewrite (surjective_pairing (run_callbacks _ lg)). apply run_callbacks_good. reflexivity.
  - unfold fire. destruct (d_called d); simpl; [exact G|].
    rewrite (surjective_pairing (run_callbacks _ lg)). apply run_callbacks_good. reflexivity.
  - rewrite (surjective_pairing (add_callbacks _ d lg)). apply add_callbacks_good, G.
  - unfold extract_result. rewrite (surjective_pairing (add_callbacks _ d lg)). apply add_callbacks_good, G.
  - split; simpl; [|exact G2]. unfold runnable; simpl. rewrite andb_false_r. discriminate.
  - unfold unpause. destruct (d_paused d) as [|k]; simpl; [exact G|].
    rewrite (surjective_pairing (run_callbacks _ lg)). apply run_callbacks_good, G2.
  - unfold resume. destruct (d_waiting d); simpl; [|exact G].
    rewrite (surjective_pairing (run_callbacks _ lg)). apply run_callbacks_good, G2.
Qed.

Lemma run_ops_good ops : forall d lg, good d -> good (snd (fst (run_ops ops d lg))).
Proof.
  induction ops as [|o r IH]; intros d lg G; simpl; [exact G|].
  pose proof (step_good o d lg G) as G1.
  destruct (step o d lg) as [[out d1] lg1]. simpl in G1.
  specialize (IH d1 lg1 G1). destruct (run_ops r d1 lg1) as [[xs d2] lg2]. exact IH.
Qed.

Lemma idle_seen d : idle d -> (if runnable d then d_result d else None) = None.
Proof. intros [H|H]; [rewrite H; reflexivity|]. destruct (runnable d); [exact H | reflexivity]. Qed.

Lemma match_deferred_idle m d lg : idle d ->
  match_deferred m d lg = (match m with MNoResult => true | _ => false end, with_cb (CPass, CPass) d, lg).
Proof.
  intro H. unfold match_deferred. rewrite (add_callbacks_idle _ _ _ H).
  change (d_result (with_cb (CPass, CPass) d)) with (d_result d). rewrite (idle_seen d H). destruct m; reflexivity.
Qed.

Definition consumed : deferred := ready (RVal 0).

Lemma match_deferred_ready m x lg :
  match_deferred m (ready x) lg =
  (expect_match m (state_of (ready x)), (if inspects m (state_of (ready x)) then consumed else ready x), lg).
Proof. destruct x, m; reflexivity. Qed.

Lemma inspects_idle m d : idle d -> inspects m (state_of d) = false.
Proof. intro H. rewrite (state_idle d H). destruct m, (d_called d); reflexivity. Qed.

Lemma expect_idle m d : idle d ->
  expect_match m (state_of d) = match m with MNoResult => true | _ => false end.
Proof. intro H. rewrite (state_idle d H). destruct m, (d_called d); reflexivity. Qed.

Lemma idle_with_cb p d : idle d -> idle (with_cb p d).
Proof. unfold idle, with_cb, runnable; simpl. auto. Qed.

Lemma state_with_cb p d : idle d -> state_of (with_cb p d) = state_of d.
Proof. intro H. rewrite (state_idle _ (idle_with_cb p d H)), (state_idle d H). reflexivity. Qed.

(* verdict, no firing, no callback run, effect on the inspected state *)
Lemma match_deferred_spec m d lg : good d ->
  forall b d1 lg1, match_deferred m d lg = (b, d1, lg1) ->
  b = expect_match m (state_of d) /\ d_called d1 = d_called d /\ lg1 = lg
  /\ (if inspects m (state_of d) then d1 = consumed else state_of d1 = state_of d).
Proof.
  intros G b d1 lg1 E. destruct (good_cases d G) as [I|[x ->]].
  - rewrite (match_deferred_idle m d lg I) in E. injection E as <- <- <-.
    rewrite (expect_idle m d I), (inspects_idle m d I), (state_with_cb _ d I). auto.
  - rewrite match_deferred_ready in E. injection E as <- <- <-.
    repeat split.
    + destruct (inspects m (state_of (ready x))); reflexivity.
    + destruct (inspects m (state_of (ready x))); reflexivity.
Qed.

Theorem extract_clause d lg : good d -> fst (fst (extract_result d lg)) = expect_extract (state_of d).
Proof.
  intro G. unfold extract_result. destruct (add_callbacks (CConst 0, CConst 0) d lg) as [d1 lg1].
  simpl.
  destruct (good_cases d G) as [I|[x ->]].
  - rewrite (idle_seen d I), (state_idle d I). destruct (d_called d); reflexivity.
  - destruct x; reflexivity.
Qed.

(* [dp l l']: l is l' with some pass-through pairs (the capture pairs of on_deferred_result) inserted *)
Inductive dp : list cbpair -> list cbpair -> Prop :=
| dp_nil : dp [] []
| dp_keep p l l' : dp l l' -> dp (p :: l) (p :: l')
| dp_skip l l' : dp l l' -> dp ((CPass, CPass) :: l) l'.

(* the Deferred of the run with matches against the Deferred of the run without: equal but for
   capture pairs still waiting in the chain *)
Definition Rel (d d' : deferred) : Prop :=
  d_called d = d_called d' /\ d_result d = d_result d' /\ dp (d_callbacks d) (d_callbacks d')
  /\ d_paused d = d_paused d' /\ d_waiting d = d_waiting d' /\ d_debugfail d = d_debugfail d'.

Lemma dp_refl l : dp l l.
Proof. induction l; constructor; assumption. Qed.

Lemma dp_app p l l' : dp l l' -> dp (l ++ [p]) (l' ++ [p]).
Proof. induction 1; simpl; try (constructor; assumption). apply dp_refl. Qed.

Lemma dp_app_skip l l' : dp l l' -> dp (l ++ [(CPass, CPass)]) l'.
Proof. induction 1; simpl; try (constructor; assumption). apply dp_skip, dp_nil. Qed.

Lemma dp_nil_inv l' : dp [] l' -> l' = [].
Proof. inversion 1; reflexivity. Qed.

Lemma Rel_refl d : Rel d d.
Proof. repeat split; try reflexivity. apply dp_refl. Qed.

Lemma Rel_runnable d d' : Rel d d' -> runnable d = runnable d'.
Proof. intros (A & _ & _ & B & C & _). unfold runnable. rewrite A, B, C. reflexivity. Qed.

Lemma Rel_state d d' : Rel d d' -> state_of d = state_of d'.
Proof.
  intro H. pose proof (Rel_runnable d d' H) as R. destruct H as (A & B & _).
  unfold state_of. rewrite A, B, R. reflexivity.
Qed.

Lemma Rel_seen d d' : Rel d d' ->
  state_of d = state_of d' /\ d_called d = d_called d' /\ unhandled d = unhandled d'.
Proof.
  intro R. split; [apply Rel_state, R|]. destruct R as (A & _ & _ & _ & _ & U). split; [exact A | exact U].
Qed.

Lemma Rel_ready x d' : Rel (ready x) d' -> d' = ready x.
Proof.
  intros (A & B & C & D & E & F). simpl in *. apply dp_nil_inv in C.
  destruct d'; simpl in *; subst; reflexivity.
Qed.

Lemma step_cb_pass x lg : step_cb (CPass, CPass) x lg = (Some x, lg).
Proof. destruct x; reflexivity. Qed.

(* a capture pair in the chain changes neither what the other callbacks see nor the outcome *)
Lemma run_cbs_dp l l' : dp l l' -> forall x lg,
  fst (fst (run_cbs l x lg)) = fst (fst (run_cbs l' x lg))
  /\ dp (snd (fst (run_cbs l x lg))) (snd (fst (run_cbs l' x lg)))
  /\ snd (run_cbs l x lg) = snd (run_cbs l' x lg).
Proof.
  induction 1 as [|p l l' H IH|l l' H IH]; intros x lg; simpl.
  - repeat split; constructor.
  - destruct (step_cb p x lg) as [[y|] lg2]; [apply IH | repeat split; assumption].
  - rewrite step_cb_pass. apply IH.
Qed.

(* what an operation yields on related Deferreds: related Deferreds and the same log (RelRes), and for a step of a
   history the same outcome as well (RelStep) *)
Definition RelRes (a b : deferred * log) : Prop := Rel (fst a) (fst b) /\ snd a = snd b.
Definition RelStep (a b : opout * deferred * log) : Prop :=
  fst (fst a) = fst (fst b) /\ Rel (snd (fst a)) (snd (fst b)) /\ snd a = snd b.

Lemma RelStep_intro out d1 d1' lg1 : Rel d1 d1' -> RelStep (out, d1, lg1) (out, d1', lg1).
Proof. intro R. split; [reflexivity | split; [exact R | reflexivity]]. Qed.

Lemma run_callbacks_Rel d d' lg : Rel d d' -> RelRes (run_callbacks d lg) (run_callbacks d' lg).
Proof.
  intro H. unfold run_callbacks. rewrite <- (Rel_runnable d d' H).
  pose proof H as (A & B & C & D & F & G).
  rewrite <- B. destruct (runnable d); [|split; [exact H | reflexivity]].
  destruct (d_result d) as [x|]; [|split; [exact H | reflexivity]].
  destruct (run_cbs_dp _ _ C x lg) as (E1 & E2 & E3).
  destruct (run_cbs (d_callbacks d) x lg) as [[r rest] lg2], (run_cbs (d_callbacks d') x lg) as [[r' rest'] lg2'].
  simpl in E1, E2, E3. subst r' lg2'. destruct r; (split; [|reflexivity]); repeat split; simpl; auto.
Qed.

Lemma Rel_with_cb p d d' : Rel d d' -> Rel (with_cb p d) (with_cb p d').
Proof. intros (A & B & C & D & E & F). repeat split; simpl; auto. apply dp_app, C. Qed.

Lemma Rel_idle d d' : Rel d d' -> idle d -> idle d'.
Proof.
  intros H I. pose proof (Rel_runnable d d' H) as R. destruct H as (_ & B & _).
  unfold idle in *. rewrite <- R, <- B. exact I.
Qed.

Lemma add_callbacks_Rel p d d' lg : Rel d d' -> RelRes (add_callbacks p d lg) (add_callbacks p d' lg).
Proof. intro H. exact (run_callbacks_Rel _ _ lg (Rel_with_cb p d d' H)). Qed.

Lemma done_Rel a b : RelRes a b ->
  RelStep (let '(d', lg') := a in (OutDone, d', lg')) (let '(d', lg') := b in (OutDone, d', lg')).
Proof. destruct a, b. intros [R E]. simpl in E. subst. apply RelStep_intro, R. Qed.

Lemma step_Rel o d d' lg : good d -> Rel d d' -> RelStep (step o d lg) (step o d' lg).
Proof.
  intros G H. pose proof H as (A & B & C & D & F & K).
  assert (Hsame : forall out, RelStep (out, d, lg) (out, d', lg)) by (intro; apply RelStep_intro, H).
  destruct o as [m|v|e|cb eb| | | |x]; cbn [step].
  - destruct (good_cases d G) as [I|[x ->]].
    + rewrite (match_deferred_idle m d lg I), (match_deferred_idle m d' lg (Rel_idle d d' H I)).
      apply RelStep_intro, Rel_with_cb, H.
    + apply Rel_ready in H. subst d'. destruct (match_deferred m (ready x) lg) as [[b dm] lgm].
      apply RelStep_intro, Rel_refl.
  - unfold fire. rewrite <- A. destruct (d_called d); [apply Hsame|].
    apply done_Rel, run_callbacks_Rel. repeat split; simpl; auto.
  - unfold fire. rewrite <- A. destruct (d_called d); [apply Hsame|].
    apply done_Rel, run_callbacks_Rel. repeat split; simpl; auto.
  - apply done_Rel, add_callbacks_Rel, H.
  - unfold extract_result. rewrite <- (Rel_runnable d d' H), <- B.
    destruct (add_callbacks_Rel (CConst 0, CConst 0) d d' lg H) as [R E].
    destruct (add_callbacks _ d lg), (add_callbacks _ d' lg). simpl in R, E.
    subst. apply RelStep_intro, R.
  - apply RelStep_intro. repeat split; simpl; auto.
  - unfold unpause. rewrite <- D. destruct (d_paused d) as [|k]; [apply Hsame|].
    apply done_Rel, run_callbacks_Rel. repeat split; simpl; auto.
  - unfold resume. rewrite <- F. destruct (d_waiting d); [|apply Hsame].
    apply done_Rel, run_callbacks_Rel. repeat split; simpl; auto.
Qed.

Lemma step_Rel_at o d d' lg out d1 lg1 : good d -> Rel d d' -> step o d lg = (out, d1, lg1) ->
  exists d1', step o d' lg = (out, d1', lg1) /\ Rel d1 d1'.
Proof.
  intros G H S. pose proof (step_Rel o d d' lg G H) as SR. rewrite S in SR.
  destruct (step o d' lg) as [[out' d1'] lg1']. destruct SR as (E1 & R1 & E3).
  simpl in E1, R1, E3. subst.
  eexists; split; [reflexivity | exact R1].
Qed.

Lemma inspects_consumes m s : inspects m s = consumes m s.
Proof. destruct m, s; reflexivity. Qed.

(* a match against the run without it: nothing, or - after looking at a failure - an errback returning None *)
Lemma match_Rel m d d' lg : good d -> Rel d d' ->
  forall b d1 lg1, match_deferred m d lg = (b, d1, lg1) ->
  lg1 = lg /\
  if consumes m (state_of d)
  then exists d1', add_callbacks (CPass, CConst 0) d' lg = (d1', lg) /\ Rel d1 d1'
  else Rel d1 d'.
Proof.
  intros G H b d1 lg1 E. rewrite <- inspects_consumes. destruct (good_cases d G) as [I|[x ->]].
  - rewrite (match_deferred_idle m d lg I) in E. injection E as <- <- <-.
    rewrite (inspects_idle m d I). split; [reflexivity|].
    destruct H as (A & B & C & D & F & K). repeat split; simpl; auto. apply dp_app_skip, C.
  - rewrite match_deferred_ready in E. injection E as <- <- <-. split; [reflexivity|].
    apply Rel_ready in H. subst d'.
    destruct (inspects m (state_of (ready x))) eqn:J; [|apply Rel_refl].
    exists consumed. split; [|apply Rel_refl].
    destruct x as [v|e]; [destruct m; discriminate|reflexivity].
Qed.

Lemma run_ops_cons o r d lg :
  run_ops (o :: r) d lg =
  let '(out, d', lg') := step o d lg in
  let '(xs, d'', lg'') := run_ops r d' lg' in
  (mkO (state_of d) (d_called d) out (state_of d') (d_called d') (length lg' - length lg) :: xs, d'', lg'').
Proof. reflexivity. Qed.

Lemma run_ops_head_Rel o r d d' lg out d1 lg1 : good d -> Rel d d' -> step o d lg = (out, d1, lg1) ->
  exists d1', Rel d1 d1'
    /\ run_ops (o :: r) d' lg =
       let '(xs, d'', lg'') := run_ops r d1' lg1 in
       (mkO (state_of d) (d_called d) out (state_of d1) (d_called d1) (length lg1 - length lg) :: xs, d'', lg'').
Proof.
  intros G H S. destruct (step_Rel_at o d d' lg _ _ _ G H S) as (d1' & S' & R1).
  exists d1'. split; [exact R1|].
  rewrite run_ops_cons, S', (Rel_state _ _ H), (Rel_state _ _ R1).
  destruct H as (-> & _). destruct R1 as (-> & _). reflexivity.
Qed.

(* the whole history: same recorded values, related final Deferreds *)
Theorem erase_simulation ops : forall d d' lg, good d -> Rel d d' ->
  forall xs df lgf, run_ops ops d lg = (xs, df, lgf) ->
  exists xs' df', run_ops (erase ops d lg) d' lg = (xs', df', lgf) /\ Rel df df'.
Proof.
  induction ops as [|o r IH]; intros d d' lg G H xs df lgf E.
  - simpl in *. injection E as <- <- <-. eauto.
  - rewrite run_ops_cons in E. simpl erase.
    pose proof (step_good o d lg G) as G1.
    destruct (step o d lg) as [[out d1] lg1] eqn:S. simpl in G1.
    destruct (run_ops r d1 lg1) as [[xs1 d2] lg2] eqn:RO. injection E as <- <- <-.
    assert (Hkeep : exists xs' df', run_ops (o :: erase r d1 lg1) d' lg = (xs', df', lg2) /\ Rel d2 df').
    { destruct (run_ops_head_Rel o (erase r d1 lg1) d d' lg _ _ _ G H S) as (d1' & R1 & ->).
      destruct (IH d1 d1' lg1 G1 R1 _ _ _ RO) as (xs' & df' & -> & Rf). eauto. }
    destruct o as [m|v|e|cb eb| | | |x]; try exact Hkeep.
    clear Hkeep. simpl in S.
    destruct (match_deferred m d lg) as [[b dm] lgm] eqn:M. injection S as <- <- <-.
    destruct (match_Rel m d d' lg G H _ _ _ M) as [-> MR].
    destruct (consumes m (state_of d)).
    + destruct MR as (d1' & A & R1).
      destruct (IH dm d1' lg G1 R1 _ _ _ RO) as (xs' & df' & RO' & Rf).
      simpl app. rewrite run_ops_cons. simpl step. rewrite A, RO'. eauto.
    + simpl app. apply (IH dm d' lg G1 MR _ _ _ RO).
Qed.

Lemma step_okb o d lg : good d -> forall out d1 lg1, step o d lg = (out, d1, lg1) ->
  op_okb o (mkO (state_of d) (d_called d) out (state_of d1) (d_called d1) (length lg1 - length lg)) = true
  /\ erase_op o (mkO (state_of d) (d_called d) out (state_of d1) (d_called d1) (length lg1 - length lg))
     = match o with
       | OMatch m => if consumes m (state_of d) then [OAdd CPass (CConst 0)] else []
       | _ => [o]
       end.
Proof.
  intros G out d1 lg1 E. destruct o as [m|v|e|cb eb| | | |x]; simpl; try (split; reflexivity).
  - simpl in E. destruct (match_deferred m d lg) as [[b dm] lgm] eqn:M. injection E as <- <- <-.
    destruct (match_deferred_spec m d lg G _ _ _ M) as (-> & C & -> & A).
    pose proof (inspects_consumes m (state_of d)) as IC. unfold after_okb.
    rewrite C, Nat.sub_diag, Bool.eqb_reflx. simpl.
    destruct (inspects m (state_of d)); rewrite <- IC.
    + subst dm. simpl. rewrite Bool.eqb_reflx. split; reflexivity.
    + rewrite A. rewrite Bool.eqb_reflx. simpl. split; [|reflexivity].
      apply dstate_eqb_spec. reflexivity.
  - simpl in E. pose proof (extract_clause d lg G) as X.
    destruct (extract_result d lg) as [[r dx] lgx]. simpl in X. injection E as <- <- <-.
    rewrite X. split; [|reflexivity]. apply opout_eqb_spec. reflexivity.
Qed.

(* what the observations of a whole history say: each one meets the statement, together they name the
   match-free history, and the last one shows the final state *)
Lemma run_ops_obs ops : forall d lg, good d ->
  forall xs df lgf, run_ops ops d lg = (xs, df, lgf) ->
  forall2b op_okb ops xs = true /\ erase_obs ops xs = erase ops d lg
  /\ last (map p_after xs) (state_of d) = state_of df /\ last (map p_cafter xs) (d_called d) = d_called df.
Proof.
  induction ops as [|o r IH]; intros d lg G xs df lgf E.
  - simpl in E. injection E as <- <- <-. repeat split; reflexivity.
  - rewrite run_ops_cons in E. simpl erase.
    pose proof (step_good o d lg G) as G1.
    destruct (step o d lg) as [[out d1] lg1] eqn:S. simpl in G1.
    destruct (run_ops r d1 lg1) as [[xs1 d2] lg2] eqn:RO. injection E as <- <- <-.
    destruct (IH d1 lg1 G1 _ _ _ RO) as (I1 & I2 & I3 & I4).
    destruct (step_okb o d lg G _ _ _ S) as [S1 S2].
    cbn [forall2b erase_obs map]. rewrite S1, I1, S2, I2, !last_cons. repeat split; assumption.
Qed.

(* nothing is on record as an unhandled failure unless the Deferred holds a failure or is stuck *)
Lemma good_unhandled d : good d -> d_debugfail d = true ->
  is_err (state_of d) || dstate_eqb (state_of d) SWaiting = true.
Proof.
  intros G U. destruct (good_cases d G) as [I|[x ->]].
  - rewrite (state_idle d I). destruct G as [_ G2]. rewrite (G2 U). reflexivity.
  - destruct x; [discriminate|reflexivity].
Qed.

Lemma model_hist_okb ops : hist_okb ops (model_hist ops) = true.
Proof.
  unfold model_hist.
  destruct (run_ops ops new_deferred []) as [[xs d] lg] eqn:E.
  destruct (erase_simulation ops _ _ _ good_new (Rel_refl _) _ _ _ E) as (xs' & de & E' & R).
  rewrite E'. unfold hist_okb. simpl.
  destruct (run_ops_obs ops _ _ good_new _ _ _ E) as (O1 & O2 & F1 & F2).
  pose proof (run_ops_good ops new_deferred [] good_new) as G. rewrite E in G. simpl in G.
  change (final_state xs) with (last (map p_after xs) (state_of new_deferred)).
  change (final_called xs) with (last (map p_cafter xs) (d_called new_deferred)).
  rewrite F1, F2, O1, O2, (eqb_spec_refl _ ops_eqb_spec), (eqb_spec_refl _ log_eqb_spec). simpl.
  destruct (Rel_seen _ _ R) as (RS & A & U).
  rewrite <- RS, <- A, <- U, (eqb_spec_refl _ dstate_eqb_spec), !Bool.eqb_reflx. unfold unhandled. simpl.
  destruct (d_debugfail d) eqn:DF; [|apply orb_true_r].
  rewrite orb_false_r. apply good_unhandled; assumption.
Qed.

Lemma sync_fired s : sync_run_user (fired_stage s) = direct_run_user s.
Proof. destruct s; reflexivity. Qed.

Lemma sync_direct s :
  sync_run_user (match s with inl v => StReturn v | inr e => StRaise e end) = direct_run_user s.
Proof. destruct s; reflexivity. Qed.

Definition verdict (m : matcher) (d : deferred) (lg : log) : bool := fst (fst (match_deferred m d lg)).
Definition after_match (m : matcher) (d : deferred) (lg : log) : deferred := snd (fst (match_deferred m d lg)).
Definition log_after_match (m : matcher) (d : deferred) (lg : log) : log := snd (match_deferred m d lg).
Definition final_of (ops : list op) (d : deferred) (lg : log) : deferred := snd (fst (run_ops ops d lg)).
Definition log_of (ops : list op) (d : deferred) (lg : log) : log := snd (run_ops ops d lg).
Definition obs_of (ops : list op) (d : deferred) (lg : log) : list oobs := fst (fst (run_ops ops d lg)).

Lemma match_parts m d lg :
  match_deferred m d lg = (verdict m d lg, after_match m d lg, log_after_match m d lg).
Proof. unfold verdict, after_match, log_after_match. destruct (match_deferred m d lg) as [[? ?] ?]. reflexivity. Qed.

Theorem verdict_spec m d lg : good d -> verdict m d lg = expect_match m (state_of d).
Proof. intro G. destruct (match_deferred_spec m d lg G _ _ _ (match_parts m d lg)) as (H & _). exact H. Qed.

(* exactly one of has_no_result / succeeded(Always) / failed(Always) matches: the one the state names *)
Theorem trichotomy d lg : good d ->
  let n := verdict MNoResult d lg in
  let s := verdict (MSucceeded IAlways) d lg in
  let f := verdict (MFailed IAlways) d lg in
  match state_of d with
  | SUnfired | SWaiting => n = true /\ s = false /\ f = false
  | SVal _ => n = false /\ s = true /\ f = false
  | SErr _ => n = false /\ s = false /\ f = true
  end.
Proof.
  intro G. simpl. rewrite !verdict_spec by exact G. destruct (state_of d); simpl; auto.
Qed.

(* matching fires nothing: no callback runs, .called is what it was, and unless a failure
   was looked at by succeeded()/failed() the inspected state is what it was *)
Theorem nothing_fired m d lg : good d ->
  log_after_match m d lg = lg
  /\ d_called (after_match m d lg) = d_called d
  /\ (inspects m (state_of d) = false -> state_of (after_match m d lg) = state_of d).
Proof.
  intro G. destruct (match_deferred_spec m d lg G _ _ _ (match_parts m d lg)) as (_ & C & L & A).
  repeat split; try assumption. intro I. rewrite I in A. exact A.
Qed.

Lemma run_ops_Rel ops : forall d d' lg, good d -> Rel d d' ->
  forall xs df lgf, run_ops ops d lg = (xs, df, lgf) ->
  exists df', run_ops ops d' lg = (xs, df', lgf) /\ Rel df df'.
Proof.
  induction ops as [|o r IH]; intros d d' lg G H xs df lgf E.
  - simpl in *. injection E as <- <- <-. eauto.
  - rewrite run_ops_cons in E.
    pose proof (step_good o d lg G) as G1.
    destruct (step o d lg) as [[out d1] lg1] eqn:S. simpl in G1.
    destruct (run_ops r d1 lg1) as [[xs1 d2] lg2] eqn:RO. injection E as <- <- <-.
    destruct (run_ops_head_Rel o r d d' lg _ _ _ G H S) as (d1' & R1 & ->).
    destruct (IH d1 d1' lg1 G1 R1 _ _ _ RO) as (df' & -> & Rf). eauto.
Qed.

Lemma match_keeps_Rel m d lg : good d -> inspects m (state_of d) = false ->
  good (after_match m d lg) /\ Rel (after_match m d lg) d.
Proof.
  intros G I. split; [apply (match_deferred_good m d lg G)|].
  pose proof (match_Rel m d d lg G (Rel_refl d) _ _ _ (match_parts m d lg)) as [_ MR].
  rewrite <- inspects_consumes, I in MR. exact MR.
Qed.

Lemma Rel_unobservable rest d d' lg : good d -> Rel d d' ->
  obs_of rest d lg = obs_of rest d' lg
  /\ log_of rest d lg = log_of rest d' lg
  /\ state_of (final_of rest d lg) = state_of (final_of rest d' lg)
  /\ d_called (final_of rest d lg) = d_called (final_of rest d' lg)
  /\ unhandled (final_of rest d lg) = unhandled (final_of rest d' lg).
Proof.
  intros G H. unfold obs_of, log_of, final_of.
  destruct (run_ops rest d lg) as [[xs df] lgf] eqn:E.
  destruct (run_ops_Rel rest _ _ _ G H _ _ _ E) as (df' & E' & R). rewrite E'. simpl.
  destruct (Rel_seen _ _ R) as (RS & A & U). auto.
Qed.

Lemma erase_no_match ops : forall d lg o, In o (erase ops d lg) -> forall m, o <> OMatch m.
Proof.
  induction ops as [|a r IH]; intros d lg o HI m; simpl in HI; [contradiction|].
  destruct (step a d lg) as [[out d1] lg1]. apply in_app_or in HI as [HI|HI]; [|eapply IH; eauto].
  destruct a as [m'|v|e|cb eb| | | |x]; simpl in HI;
    try (destruct HI as [<-|[]]; discriminate).
  destruct (consumes m' (state_of d)); simpl in HI; [destruct HI as [<-|[]]; discriminate|contradiction].
Qed.

Theorem passive ops d lg : good d ->
  (forall o, In o (erase ops d lg) -> forall m, o <> OMatch m)
  /\ log_of (erase ops d lg) d lg = log_of ops d lg
  /\ state_of (final_of (erase ops d lg) d lg) = state_of (final_of ops d lg)
  /\ d_called (final_of (erase ops d lg) d lg) = d_called (final_of ops d lg)
  /\ unhandled (final_of (erase ops d lg) d lg) = unhandled (final_of ops d lg).
Proof.
  intro G. split; [apply erase_no_match|].
  unfold log_of, final_of. destruct (run_ops ops d lg) as [[xs df] lgf] eqn:E.
  destruct (erase_simulation ops d d lg G (Rel_refl d) _ _ _ E) as (xs' & df' & E' & R). rewrite E'. simpl.
  destruct (Rel_seen _ _ R) as (RS & A & U). auto.
Qed.

Theorem sync_runner s :
  sync_run_user (fired_stage s) = direct_run_user s
  /\ sync_run_user (match s with inl v => StReturn v | inr e => StRaise e end) = direct_run_user s.
Proof. split; [apply sync_fired | apply sync_direct]. Qed.

Lemma extract_result_idle d lg : idle d ->
  extract_result d lg = (Raised XNotFired, with_cb (CConst 0, CConst 0) d, lg).
Proof.
  intro I. unfold extract_result. rewrite (add_callbacks_idle _ _ _ I), (idle_seen d I).
  reflexivity.
Qed.

Definition stage_good (st : stage) : Prop := match st with StDeferred d => good d | _ => True end.

Lemma sync_idle d : idle d -> sync_run_user (StDeferred d) = URaised XNotFired.
Proof.
  intro I. unfold sync_run_user. rewrite (add_callbacks_idle _ _ _ I).
  rewrite (extract_result_idle _ _ (idle_with_cb _ d I)). reflexivity.
Qed.

Lemma sync_ready x : sync_run_user (StDeferred (ready x)) =
  match x with RVal v => URet v | RErr e => UCaught e end.
Proof. destruct x; reflexivity. Qed.

(* the runner raises DeferredNotFired for a Deferred without a result, and for nothing else:
   in particular not for a fired Deferred whose failure is a DeferredNotFired *)
Theorem sync_notfired_only st : stage_good st ->
  (forall x, sync_run_user st = URaised x -> x = XNotFired /\ exists d, st = StDeferred d /\ idle d)
  /\ (forall d, st = StDeferred d -> idle d -> sync_run_user st = URaised XNotFired)
  /\ (forall e, st = StRaise e \/ st = StDeferred (ready (RErr e)) -> sync_run_user st = UCaught e).
Proof.
  intro G. split; [|split].
  - intros x H. destruct st as [v|e|d].
    + rewrite (sync_direct (inl v)) in H. discriminate.
    + rewrite (sync_direct (inr e)) in H. discriminate.
    + simpl in G. destruct (good_cases d G) as [I|[y ->]].
      * rewrite (sync_idle d I) in H. injection H as <-. split; [reflexivity|]. eauto.
      * rewrite sync_ready in H. destruct y; discriminate.
  - intros d -> I. apply sync_idle, I.
  - intros e [-> | ->]; [apply (sync_direct (inr e)) | apply (sync_ready (RErr e))].
Qed.
