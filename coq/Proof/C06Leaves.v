(* C06 - leaf matchers whose code differs from the documented predicate:
   SameMembers (helpers.list_subtract both ways) and KeysEqual (sorted lists compared). *)
From Coq Require Import Permutation Sorted.
From TT Require Import Lib.Base Lib.EqbFacts Lib.ListFacts Lib.Count Lib.Sort Model.Matchers Spec.C06.

Lemma str_eqb_eq a b : str_eqb a b = true <-> a = b.
Proof. apply list_eqb_spec. intros x y. apply N.eqb_eq. Qed.

Lemma key_eqb_eq a b : key_eqb a b = true <-> a = b.
Proof. destruct a, b; simpl; eqb_components ltac:(first [apply Z.eqb_eq | apply str_eqb_eq]). Qed.

(* on scalars == identifies 1, True and 1.0 (and 0, False, 0.0): two scalars are == exactly when they have
   the same code, whichever side the scalar stands *)
Inductive scode := SNum (z : Z) | SStr (s : str) | SBytes (s : str) | SNone | SSet (e : list Z) | SOther.
Definition code (v : val) : scode :=
  match v with
  | VInt z => SNum (2 * z)
  | VBool b => SNum (if b then 2 else 0)
  | VFloat h => SNum h
  | VStr s => SStr s
  | VBytes s => SBytes s
  | VNone => SNone
  | VSet e => SSet e
  | _ => SOther
  end.

Definition scode_eqb (a b : scode) : bool :=
  match a, b with
  | SNum x, SNum y => Z.eqb x y
  | SStr x, SStr y | SBytes x, SBytes y => str_eqb x y
  | SNone, SNone | SOther, SOther => true
  | SSet x, SSet y => list_eqb Z.eqb x y
  | _, _ => false
  end.

Lemma scode_eqb_eq a b : scode_eqb a b = true <-> a = b.
Proof.
  destruct a, b; simpl;
    eqb_components ltac:(first [apply Z.eqb_eq | apply str_eqb_eq | apply (list_eqb_spec Z.eqb Z.eqb_eq)]).
Qed.

Lemma veq_scode x y : scalar x = true ->
  veq x y = scode_eqb (code x) (code y) /\ veq y x = scode_eqb (code y) (code x).
Proof. intro S. destruct x; try discriminate S; destruct y; split; reflexivity. Qed.

Lemma veq_code x y : scalar x = true ->
  (veq x y = true <-> code x = code y) /\ (veq y x = true <-> code y = code x).
Proof. intro S. destruct (veq_scode x y S) as [-> ->]. split; apply scode_eqb_eq. Qed.

Lemma veq_refl_scalar x : scalar x = true -> veq x x = true.
Proof. intro S. apply (veq_code x x S). reflexivity. Qed.

Lemma veq_sym_scalar x y : scalar x = true -> veq x y = veq y x.
Proof.
  intro S. apply eq_true_iff_eq. destruct (veq_code x y S) as [A B]. rewrite A, B. split; congruence.
Qed.

Lemma veq_trans_scalar x y z : scalar x = true -> scalar y = true ->
  veq x y = true -> veq y z = true -> veq x z = true.
Proof.
  intros Sx Sy H1 H2. apply (veq_code x y Sx) in H1. apply (veq_code y z Sy) in H2.
  apply (veq_code x z Sx). congruence.
Qed.

Lemma veq_numbers z b h :
  veq (VInt z) (VBool b) = Z.eqb z (if b then 1 else 0)
  /\ veq (VInt z) (VFloat h) = Z.eqb (2 * z) h
  /\ veq (VBool b) (VFloat h) = Z.eqb (if b then 2 else 0) h.
Proof.
  split; [|split; reflexivity].
  cbn [veq num2]. destruct b; destruct z as [|p|p]; try destruct p; reflexivity.
Qed.

Lemma veq_number_other x : num2 x <> None ->
  veq x VNone = false /\ veq x (VStr []) = false /\ veq x (VBytes []) = false
  /\ veq x (VList []) = false /\ veq x (VDict []) = false.
Proof. intro H. destruct x; try (exfalso; apply H; reflexivity); repeat split. Qed.

(* SameMembers: list_subtract both ways is empty iff every code occurs equally often in both lists.
   The counting is on codes (cnt), where == is plain equality *)
Definition Sc (l : list val) : Prop := Forall (fun v => scalar v = true) l.
Definition cnt (k : scode) (l : list val) : nat := length (filter (fun z => scode_eqb k (code z)) l).

Lemma countv_cnt x l : scalar x = true -> countv x l = cnt (code x) l.
Proof.
  intro S. unfold countv, cnt. f_equal. apply filter_ext. intro z. apply (veq_scode x z S).
Qed.

Lemma cnt_cons k y l : cnt k (y :: l) = (if scode_eqb k (code y) then 1 else 0) + cnt k l.
Proof. apply (count_cons (fun z => scode_eqb k (code z))). Qed.

Lemma cnt_notin y a : scalar y = true -> existsb (fun z => veq z y) a = false -> cnt (code y) a = 0.
Proof.
  intros S H. induction a as [|z a IH]; simpl in H; [reflexivity|].
  apply orb_false_iff in H as [H1 H2]. rewrite cnt_cons, (IH H2).
  rewrite <- (proj1 (veq_scode y z S)), (veq_sym_scalar y z S), H1. reflexivity.
Qed.

Lemma cnt_remove k y a : scalar y = true -> existsb (fun z => veq z y) a = true ->
  cnt k (remove_first y a) + (if scode_eqb k (code y) then 1 else 0) = cnt k a.
Proof.
  intros S. induction a as [|z a IH]; simpl; intro H; [discriminate|].
  destruct (veq z y) eqn:E.
  - apply (veq_code y z S) in E. rewrite cnt_cons, E. lia.
  - simpl in H. rewrite !cnt_cons. specialize (IH H). lia.
Qed.

Lemma cnt_subtract k b : Sc b -> forall a, cnt k (list_subtract a b) = cnt k a - cnt k b.
Proof.
  induction 1 as [|y b Sy _ IH]; intro a; simpl.
  - change (cnt k []) with 0. lia.
  - rewrite IH, cnt_cons.
    destruct (existsb (fun z => veq z y) a) eqn:E.
    + pose proof (cnt_remove k y a Sy E). lia.
    + destruct (scode_eqb k (code y)) eqn:Ek; [|lia].
      apply scode_eqb_eq in Ek. subst k. rewrite (cnt_notin y a Sy E). lia.
Qed.

Lemma subtract_nil a b : Sc b -> (list_subtract a b = [] <-> forall k, cnt k a <= cnt k b).
Proof.
  intro Sb. split.
  - intros H k. apply Nat.sub_0_le. rewrite <- (cnt_subtract k b Sb a), H. reflexivity.
  - intro H. destruct (list_subtract a b) as [|y r] eqn:E; [reflexivity|]. exfalso.
    (* the code of a member left over occurs more often in a than in b *)
    pose proof (cnt_subtract (code y) b Sb a) as C.
    rewrite E, cnt_cons, (proj2 (scode_eqb_eq _ _) eq_refl) in C. specialize (H (code y)). lia.
Qed.

(* a code that no member has is counted zero times on both sides *)
Lemma cnt_eq_ext l e : (forall x, In x (l ++ e) -> cnt (code x) l = cnt (code x) e) -> forall k, cnt k l = cnt k e.
Proof.
  intros H k.
  assert (Z : forall a, incl a (l ++ e) -> 1 <= cnt k a -> cnt k l = cnt k e).
  { intros a I P. apply count_pos in P as [x [Hx Ex]]. apply scode_eqb_eq in Ex. subst k. apply H, I, Hx. }
  destruct (le_lt_dec 1 (cnt k l)) as [P|P]; [exact (Z l (incl_appl _ (incl_refl _)) P)|].
  destruct (le_lt_dec 1 (cnt k e)) as [Q|Q]; [exact (Z e (incl_appr _ (incl_refl _)) Q)|lia].
Qed.

Theorem same_members_code l e : forallb scalar (e ++ l) = true ->
  (is_nil (list_subtract e l) && is_nil (list_subtract l e) = true <-> same_members l e = true).
Proof.
  intro S. rewrite forallb_app in S. apply andb_true_iff in S as [Se Sl].
  assert (SE : Sc e) by (apply Forall_forall; apply forallb_forall; exact Se).
  assert (SL : Sc l) by (apply Forall_forall; apply forallb_forall; exact Sl).
  rewrite andb_true_iff, !is_nil_true, (subtract_nil e l SL), (subtract_nil l e SE).
  unfold same_members. rewrite forallb_forall.
  assert (C : forall x, In x (l ++ e) -> countv x l = cnt (code x) l /\ countv x e = cnt (code x) e).
  { intros x Hx. assert (Sx : scalar x = true).
    { apply in_app_or in Hx. destruct Hx as [Hx|Hx]; [exact (proj1 (Forall_forall _ _) SL x Hx)|].
      exact (proj1 (Forall_forall _ _) SE x Hx). }
    split; apply countv_cnt; exact Sx. }
  split.
  - intros [H1 H2] x Hx. destruct (C x Hx) as [-> ->]. apply Nat.eqb_eq, Nat.le_antisymm; [apply H2|apply H1].
  - intro H. assert (E : forall k, cnt k l = cnt k e).
    { apply cnt_eq_ext. intros x Hx. destruct (C x Hx) as [<- <-]. apply Nat.eqb_eq, H, Hx. }
    split; intro k; rewrite E; reflexivity.
Qed.

(* KeysEqual compares sorted(keys): key_leb is a total order (str_ltb is lexicographic), so a sorted list is
   determined by its members *)
Lemma str_ltb_irrefl a : str_ltb a a = false.
Proof. induction a as [|x a IH]; simpl; [reflexivity|]. rewrite N.ltb_irrefl, N.eqb_refl, IH. reflexivity. Qed.

Lemma str_tricho a : forall b, str_ltb a b = false -> str_ltb b a = false -> a = b.
Proof.
  induction a as [|x a IH]; intros [|y b]; simpl; intros H1 H2; try discriminate; [reflexivity|].
  apply orb_false_iff in H1 as [L1 E1]. apply orb_false_iff in H2 as [L2 E2].
  apply N.ltb_ge in L1, L2. assert (x = y) by lia. subst y.
  rewrite N.eqb_refl in E1, E2. simpl in E1, E2. f_equal. apply IH; assumption.
Qed.

Lemma str_ltb_negtrans c : forall a b, str_ltb c a = true -> str_ltb b a = true \/ str_ltb c b = true.
Proof.
  induction c as [|z c IH]; intros [|x a] [|y b]; simpl; intro H; try discriminate; auto.
  apply orb_true_iff in H. destruct (N.ltb y x) eqn:Lyx; [left; reflexivity|].
  destruct (N.ltb z y) eqn:Lzy; [right; reflexivity|]. simpl.
  apply N.ltb_ge in Lyx, Lzy.
  destruct H as [H|H].
  - apply N.ltb_lt in H. lia.
  - apply andb_true_iff in H as [E H]. apply N.eqb_eq in E. subst z.
    assert (x = y) by lia. subst y. rewrite N.eqb_refl. simpl. apply IH. exact H.
Qed.

Lemma str_ltb_asym a : forall b, str_ltb a b = true -> str_ltb b a = false.
Proof.
  induction a as [|x a IH]; intros [|y b]; simpl; intro H; try discriminate; try reflexivity.
  apply orb_true_iff in H. apply orb_false_iff. destruct H as [H|H].
  - apply N.ltb_lt in H. split; [apply N.ltb_ge; lia|].
    destruct (N.eqb y x) eqn:E; [apply N.eqb_eq in E; lia|reflexivity].
  - apply andb_true_iff in H as [E H]. apply N.eqb_eq in E. subst y.
    rewrite N.ltb_irrefl, N.eqb_refl. simpl. split; [reflexivity|]. apply IH. exact H.
Qed.

Lemma key_leb_total a b : key_leb a b = true \/ key_leb b a = true.
Proof.
  destruct a as [x|x], b as [y|y]; simpl; auto.
  - destruct (Z.leb x y) eqn:E; [auto|]. right. apply Z.leb_le. apply Z.leb_gt in E. lia.
  - destruct (str_ltb y x) eqn:E; [|auto]. right. rewrite (str_ltb_asym _ _ E). reflexivity.
Qed.

Lemma key_leb_antisym a b : Sort.le key_leb a b -> Sort.le key_leb b a -> a = b.
Proof.
  unfold Sort.le. destruct a as [x|x], b as [y|y]; simpl; intros H1 H2; try discriminate.
  - apply Z.leb_le in H1, H2. f_equal. lia.
  - apply negb_true_iff in H1, H2. f_equal. apply str_tricho; assumption.
Qed.

Lemma key_leb_trans a b c : Sort.le key_leb a b -> Sort.le key_leb b c -> Sort.le key_leb a c.
Proof.
  unfold Sort.le. destruct a as [x|x], b as [y|y], c as [z|z]; simpl; intros H1 H2; try discriminate; try reflexivity.
  - apply Z.leb_le in H1, H2. apply Z.leb_le. lia.
  - apply negb_true_iff in H1, H2. apply negb_true_iff.
    destruct (str_ltb z x) eqn:E; [|reflexivity].
    destruct (str_ltb_negtrans z x y E) as [H|H]; congruence.
Qed.

Lemma sorted_perm_eq {A} (R : A -> A -> Prop) (anti : forall a b, R a b -> R b a -> a = b) (l1 : list A) :
  forall l2, StronglySorted R l1 -> StronglySorted R l2 -> Permutation l1 l2 -> l1 = l2.
Proof.
  induction l1 as [|x r1 IH]; intros l2 S1 S2 P.
  - apply Permutation_nil in P. congruence.
  - destruct l2 as [|y r2]; [apply Permutation_sym, Permutation_nil in P; discriminate|].
    inversion S1 as [|? ? S1' F1]; subst. inversion S2 as [|? ? S2' F2]; subst.
    (* each head is a member of the other list, hence below the other head *)
    assert (x = y).
    { assert (Hx : In x (y :: r2)) by (apply (Permutation_in _ P); left; reflexivity).
      assert (Hy : In y (x :: r1)) by (apply (Permutation_in _ (Permutation_sym P)); left; reflexivity).
      destruct Hx as [->|Hx]; [reflexivity|]. destruct Hy as [->|Hy]; [reflexivity|].
      apply anti.
      - apply (proj1 (Forall_forall _ _) F1). exact Hy.
      - apply (proj1 (Forall_forall _ _) F2). exact Hx. }
    subst y. f_equal. apply IH; try assumption. eapply Permutation_cons_inv; exact P.
Qed.

Lemma isort_strongly l : StronglySorted (Sort.le key_leb) (isort key_leb l).
Proof.
  apply Sorted_StronglySorted; [intros a b c; apply key_leb_trans|].
  apply (isort_sorted key_leb key_leb_total).
Qed.

Lemma same_keys_perm a b : same_keys a b = true <-> Permutation a b.
Proof.
  unfold same_keys, countk. rewrite (same_counts key_eqb key_eqb_eq). split.
  - apply (counts_perm key_eqb key_eqb_eq).
  - intros P x. apply count_perm. exact P.
Qed.

Theorem same_keys_code a b :
  list_eqb key_eqb (isort key_leb a) (isort key_leb b) = true <-> same_keys a b = true.
Proof.
  rewrite (list_eqb_spec key_eqb key_eqb_eq), same_keys_perm. split.
  - intro E. rewrite (isort_perm key_leb a), (isort_perm key_leb b), E. reflexivity.
  - intro P. apply (sorted_perm_eq (Sort.le key_leb) key_leb_antisym); try apply isort_strongly.
    rewrite <- (isort_perm key_leb a), <- (isort_perm key_leb b). exact P.
Qed.
