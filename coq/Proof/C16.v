(* Content (C16): chunk independence for any byte automaton, the UTF-8 round trip, the read loop under any
   read-size oracle, snapshots, parse (render ct), readers of one content; then the model against the statement (model_meets_spec, spec_okb_sound). *)
From Coq Require Import String Permutation.
From TT Require Import Lib.Base Lib.EqbFacts Lib.ListFacts Lib.Sort Model.Utf8 Model.MimeCt Model.Content Spec.C16 Corr.C16 Proof.Utf8Enc.

Section Chunking.
  Variable C : codec.

  Lemma feed_app : forall a b s,
    feed C s (a ++ b) =
    match feed C s a with
    | None => None
    | Some (s1, o1) => match feed C s1 b with
                       | None => None
                       | Some (s2, o2) => Some (s2, o1 ++ o2)
                       end
    end.
  Proof.
    induction a as [|x a IH]; intros b s; simpl.
    - destruct (feed C s b) as [[s2 o2]|]; reflexivity.
    - destruct (dstep C s x) as [[s' o]|]; [|reflexivity].
      rewrite IH. destruct (feed C s' a) as [[s1 o1]|]; [|reflexivity].
      destruct (feed C s1 b) as [[s2 o2]|]; [|reflexivity].
      destruct o; reflexivity.
  Qed.

  (* what the generator loop yields, joined, from any decoder state *)
  Definition joined_text (s : dstate C) (chunks : list chunk) : option (list N) :=
    option_map (@concat N) (iter_text_loop C s chunks).

  Definition decode_from (s : dstate C) (bs : list N) : option (list N) :=
    match feed C s bs with
    | None => None
    | Some (s', out) => match flush C s' with None => None | Some fin => Some (out ++ fin) end
    end.

  Lemma flush_nil s fin : flush C s = Some fin -> fin = [].
  Proof. unfold flush. destruct (dfinal C s); congruence. Qed.

  Lemma chunking_from : forall chunks s, joined_text s chunks = decode_from s (concat chunks).
  Proof.
    unfold joined_text, decode_from.
    induction chunks as [|c r IH]; intro s; simpl.
    - destruct (flush C s) as [fin|] eqn:E; [|reflexivity].
      rewrite (flush_nil _ _ E). reflexivity.
    - rewrite feed_app. destruct (feed C s c) as [[s1 o1]|]; [|reflexivity].
      specialize (IH s1).
      destruct (iter_text_loop C s1 r) as [pieces|]; simpl in *.
      + destruct (feed C s1 (concat r)) as [[s2 o2]|]; [|discriminate].
        destruct (flush C s2) as [fin|]; [|discriminate].
        injection IH as IH. rewrite IH, app_assoc. reflexivity.
      + destruct (feed C s1 (concat r)) as [[s2 o2]|]; [|reflexivity].
        destruct (flush C s2); [discriminate|reflexivity].
  Qed.

  Theorem chunking : forall chunks, joined_text (dinit C) chunks = decode_whole C (concat chunks).
  Proof. intro chunks. apply chunking_from. Qed.

  Corollary chunking_indep : forall c1 c2, concat c1 = concat c2 ->
    joined_text (dinit C) c1 = joined_text (dinit C) c2.
  Proof. intros c1 c2 E. rewrite !chunking, E. reflexivity. Qed.
End Chunking.

Lemma bytes_eqb_spec a b : bytes_eqb a b = true <-> a = b.
Proof. apply list_eqb_spec, N.eqb_eq. Qed.
Lemma exn_eqb_spec a b : exn_eqb a b = true <-> a = b.
Proof.
  split.
  - intro H. destruct a; destruct b; (reflexivity || discriminate H).
  - intros <-. destruct a; reflexivity.
Qed.
Lemma tres_eqb_spec a b : tres_eqb a b = true <-> a = b.
Proof. apply res_eqb_spec; [apply bytes_eqb_spec|apply exn_eqb_spec]. Qed.
Lemma chunks_eqb_spec a b : chunks_eqb a b = true <-> a = b.
Proof. apply list_eqb_spec, bytes_eqb_spec. Qed.
Lemma str_eqb_spec a b : str_eqb a b = true <-> a = b.
Proof. apply bytes_eqb_spec. Qed.

Lemma bytes_eqb_refl a : bytes_eqb a a = true.
Proof. apply (eqb_spec_refl _ bytes_eqb_spec). Qed.
Lemma exn_eqb_refl e : exn_eqb e e = true.
Proof. apply (eqb_spec_refl _ exn_eqb_spec). Qed.
Lemma tres_eqb_refl a : tres_eqb a a = true.
Proof. apply (eqb_spec_refl _ tres_eqb_spec). Qed.
Lemma str_eqb_refl a : str_eqb a a = true.
Proof. apply bytes_eqb_refl. Qed.

Lemma iter_text_whole C chunks :
  match iter_text_loop C (dinit C) chunks with
  | None => Raised UnicodeDecodeError
  | Some pieces => Ok (concat pieces)
  end = whole C (concat chunks).
Proof.
  unfold whole. rewrite <- chunking. unfold joined_text.
  destruct (iter_text_loop C (dinit C) chunks); reflexivity.
Qed.

Lemma as_text_stored ct chunks w :
  as_text {| c_type := ct; c_src := Stored chunks |} w =
  (if negb (str_eqb (ct_type ct) (sb "text")) then Raised ValueError
   else match codec_of (declared_charset ct) with
        | None => Raised LookupError
        | Some C => whole C (concat chunks)
        end, w).
Proof.
  unfold as_text, iter_bytes; simpl.
  destruct (negb (str_eqb (ct_type ct) (sb "text"))); [reflexivity|].
  destruct (codec_of (declared_charset ct)) as [C|]; [|reflexivity].
  rewrite <- iter_text_whole.
  destruct (iter_text_loop C (dinit C) chunks); reflexivity.
Qed.

Lemma text_okb_stored ct chunks w :
  text_okb ct (concat chunks) (fst (as_text {| c_type := ct; c_src := Stored chunks |} w)) = true.
Proof.
  rewrite as_text_stored. unfold text_okb; simpl.
  destruct (str_eqb (ct_type ct) (sb "text")); simpl; [|reflexivity].
  destruct (codec_of (declared_charset ct)); [apply tres_eqb_refl|reflexivity].
Qed.

Lemma feed_utf8_encode s : forallb is_scalar s = true -> feed utf8 U0 (utf8_encode s) = Some (U0, s).
Proof.
  induction s as [|c s IH]; intro H; [reflexivity|].
  simpl in H. apply andb_true_iff in H as [Hc Hs].
  unfold utf8_encode. simpl flat_map. rewrite feed_app.
  change (dstate utf8) with u8state in *.
  rewrite (utf8_enc1_decodes c Hc). fold (utf8_encode s). specialize (IH Hs). rewrite IH. reflexivity.
Qed.

Theorem utf8_roundtrip s : forallb is_scalar s = true -> decode_whole utf8 (utf8_encode s) = Some s.
Proof.
  intro H. unfold decode_whole. change (dinit utf8) with U0.
  rewrite (feed_utf8_encode s H). simpl. rewrite app_nil_r. reflexivity.
Qed.

Lemma utf8_text_ct : str_eqb (ct_type Gen.Ctc16.UTF8_TEXT) (sb "text") = true
                     /\ codec_of (declared_charset Gen.Ctc16.UTF8_TEXT) = Some utf8.
Proof. split; reflexivity. Qed.

Theorem text_roundtrip s w : forallb is_scalar s = true -> as_text (text_content s) w = (Ok s, w).
Proof.
  intro H. unfold text_content. rewrite as_text_stored.
  destruct utf8_text_ct as [E1 E2]. rewrite E1, E2. simpl.
  unfold whole. rewrite app_nil_r, (utf8_roundtrip s H). reflexivity.
Qed.

Lemma skipn_skipn {A} a : forall b (l : list A), skipn a (skipn b l) = skipn (b + a) l.
Proof.
  induction b as [|b IH]; intro l; [reflexivity|].
  destruct l; simpl; [apply skipn_nil|apply IH].
Qed.

Lemma firstn_nil_inv {A} n (l : list A) : 1 <= n -> firstn n l = [] -> l = [].
Proof. destruct n; [lia|]. destruct l; simpl; [reflexivity|discriminate]. Qed.

Lemma next_size_bounds n sizes : 1 <= n -> 1 <= next_size n sizes <= n.
Proof. intro Hn. unfold next_size. destruct sizes as [|s r]; lia. Qed.

(* however short the reads are, the loop only stops at the empty read *)
Theorem read_loop_spec : forall fuel data pos n sizes, 1 <= n -> length data - pos < fuel ->
  exists cs, read_loop fuel data pos n sizes = Some (cs, Nat.max pos (length data), S (length cs))
             /\ ChunksOk n cs (skipn pos data).
Proof.
  induction fuel as [|f IH]; intros data pos n sizes Hn Hf; [lia|].
  cbn [read_loop]. unfold read_at, ChunksOk.
  pose proof (next_size_bounds n sizes Hn) as [Hk1 Hk2]. set (k := next_size n sizes) in *. clearbody k.
  pose proof (firstn_skipn k (skipn pos data)) as S.
  destruct (firstn k (skipn pos data)) as [|x c'] eqn:E.
  - apply (firstn_nil_inv _ _ Hk1) in E.
    assert (L : length data <= pos).
    { pose proof (skipn_length pos data) as Hl. rewrite E in Hl. simpl in Hl. lia. }
    exists []. rewrite Nat.max_l by exact L. rewrite E. repeat split; constructor.
  - set (c := x :: c') in *.
    assert (Hlen : length c = Nat.min k (length data - pos)).
    { rewrite <- E, firstn_length, skipn_length. reflexivity. }
    assert (Hpos : 1 <= length c) by (subst c; simpl; lia).
    destruct (IH data (pos + length c) n (tl sizes) Hn ltac:(lia)) as [cs [R [F1 [F2 Hc]]]].
    rewrite R. exists (c :: cs). repeat split.
    + f_equal. f_equal. f_equal. lia.
    + constructor; [subst c; discriminate|exact F1].
    + constructor; [lia|exact F2].
    + change (concat (c :: cs)) with (c ++ concat cs).
      (* what follows the chunk c = firstn k rest is skipn k rest *)
      rewrite Hc, <- skipn_skipn. pose proof (f_equal (skipn (length c)) S) as S'.
      rewrite skipn_exact in S'. rewrite <- S'. exact S.
Qed.

Lemma chunks_okb_iff n cs bs : chunks_okb n cs bs = true <-> ChunksOk n cs bs.
Proof.
  unfold chunks_okb, ChunksOk. split.
  - intro H. apply andb_true_iff in H as [H H3]. apply andb_true_iff in H as [H1 H2].
    rewrite forallb_forall in H1, H2. repeat split.
    + apply Forall_forall. intros c Hc. specialize (H1 c Hc). destruct c; [discriminate H1|discriminate].
    + apply Forall_forall. intros c Hc. apply Nat.leb_le, H2, Hc.
    + apply bytes_eqb_spec, H3.
  - intros (F1 & F2 & E). rewrite Forall_forall in F1, F2.
    apply andb_true_iff. split; [apply andb_true_iff; split|].
    + apply forallb_forall. intros c Hc. specialize (F1 c Hc). destruct c; [congruence|reflexivity].
    + apply forallb_forall. intros c Hc. apply Nat.leb_le, F2, Hc.
    + apply bytes_eqb_spec, E.
Qed.

Definition after_read (k : skind) (w : world) (p r : nat) : world :=
  {| w_data := w_data w;
     w_pos := match k with KBytesIO => Nat.max p (length (w_data w)) | KFile => w_pos w end;
     w_reads := w_reads w + r;
     w_heap := w_heap w;
     w_sizes := skipn r (w_sizes w) |}.

(* the fuel run_reader supplies is enough *)
Theorem run_reader_spec k n sk w : 1 <= n ->
  match start_of k (length (w_data w)) (w_pos w) sk with
  | Ok p => exists cs, run_reader k n sk w = (Ok cs, after_read k w p (S (length cs)))
                       /\ ChunksOk n cs (skipn p (w_data w))
  | Raised e => run_reader k n sk w = (Raised e, w)
  end.
Proof.
  intro Hn. unfold run_reader. fold (start_of k (length (w_data w)) (w_pos w) sk).
  destruct (start_of k (length (w_data w)) (w_pos w) sk) as [p|e]; [|reflexivity].
  destruct (read_loop_spec (length (w_data w) - p + 1) (w_data w) p n (w_sizes w) Hn ltac:(lia)) as [cs [R H]].
  rewrite R. exists cs. split; [reflexivity|exact H].
Qed.

(* the second iteration starts where the statement says *)
Lemma start_of_again k len pos p sk : start_of k len pos sk = Ok p ->
  exists p2, start_of k len (match k with KBytesIO => Nat.max p len | KFile => pos end) sk = Ok p2
             /\ start_of k len (pos_after len p) sk = Ok p2.
Proof.
  unfold start_of, pos_after. destruct sk as [[off wh]|]; intro H.
  - exists p. split; exact H.
  - destruct k; eexists; split; reflexivity.
Qed.

Theorem reader_holds r : 1 <= r_chunk r -> spec_okb (IReader r) (model_reader r) = true.
Proof.
  intro Hn. destruct r as [k d0 p0 sk n b d1 p1 sz]. simpl in Hn.
  unfold model_reader, content_from_source, content_from_reader, iter_bytes, spec_okb, reader_okb, want. simpl.
  destruct b; simpl.
  - pose proof (run_reader_spec k n sk (w_init d0 p0 sz) Hn) as H. simpl in H.
    destruct (start_of k (length d0) p0 sk) as [p|e].
    + destruct H as [cs [-> Hok]]. simpl. apply chunks_okb_iff in Hok.
      rewrite Nat.ltb_irrefl, (eqb_spec_refl _ chunks_eqb_spec), Hok. reflexivity.
    + rewrite H. simpl. apply exn_eqb_refl.
  - pose proof (run_reader_spec k n sk (set_source (w_init d0 p0 sz) d1 p1) Hn) as H. simpl in H.
    destruct (start_of k (length d1) p1 sk) as [p|e] eqn:E.
    + destruct H as [cs [-> Hok]].
      pose proof (run_reader_spec k n sk (after_read k (set_source (w_init d0 p0 sz) d1 p1) p (S (length cs))) Hn) as H2.
      simpl in H2. destruct (start_of_again k (length d1) p1 p sk E) as [p2 [E2 E3]].
      rewrite E2 in H2. destruct H2 as [cs2 [-> Hok2]].
      rewrite E3. apply chunks_okb_iff in Hok, Hok2. simpl. rewrite Hok, Hok2. reflexivity.
    + rewrite H. simpl. rewrite H. simpl. rewrite exn_eqb_refl. reflexivity.
Qed.

Lemma utf8_text_same : ct_eqb Gen.Ctc16.UTF8_TEXT Gen.Ctc16.UTF8_TEXT = true.
Proof. reflexivity. Qed.
(* until [Local Transparent] below the scenario proofs simplify the model's run with [simpl], which must not
   start comparing UTF8_TEXT with itself character by character: the comparison is rewritten by utf8_text_same *)
Local Opaque ct_eqb.

Theorem snap_holds r : 1 <= r_chunk r -> spec_okb (ISnap r) (model_snap r) = true.
Proof.
  intro Hn. destruct r as [k d0 p0 sk n b d1 p1 sz]. simpl in Hn.
  unfold model_snap, content_from_source, content_from_reader, copy_content, iter_bytes, heap_get, spec_okb, snap_okb, want. simpl.
  pose proof (run_reader_spec k n sk (w_init d0 p0 sz) Hn) as H. simpl in H.
  destruct (start_of k (length d0) p0 sk) as [p|e]; [|rewrite H; simpl; apply exn_eqb_refl].
  destruct H as [cs [-> [_ [_ Hok]]]]. simpl.
  match goal with |- context [run_reader k n sk ?W] => pose proof (run_reader_spec k n sk W Hn) as H2 end. simpl in H2.
  destruct (start_of k (length d1) p1 sk) as [q|e].
  - destruct H2 as [cs2 [-> [_ [_ Hok2]]]]. unfold heap_get. simpl.
    rewrite utf8_text_same, Nat.ltb_irrefl, Hok, Hok2, !bytes_eqb_refl. reflexivity.
  - rewrite H2. unfold heap_get. simpl.
    rewrite utf8_text_same, Nat.ltb_irrefl, Hok, bytes_eqb_refl. apply exn_eqb_refl.
Qed.

Theorem snaplist_holds r : spec_okb (ISnapList r) (model_snaplist r) = true.
Proof.
  destruct r as [tup buf ops]. unfold model_snaplist, copy_content, iter_bytes, heap_get, spec_okb, snaplist_okb.
  destruct tup; simpl; rewrite utf8_text_same, !bytes_eqb_refl; reflexivity.
Qed.

Theorem readerlist_holds b r : spec_okb (IReaderList b r) (model_readerlist b r) = true.
Proof.
  destruct r as [tup buf ops]. unfold model_readerlist, content_from_reader, iter_bytes, heap_get, spec_okb, readerlist_bytes.
  destruct b, tup; simpl; rewrite !bytes_eqb_refl; reflexivity.
Qed.

Local Transparent ct_eqb.

Theorem content_eq_stored ta ca tb cb w :
  content_eq {| c_type := ta; c_src := Stored ca |} {| c_type := tb; c_src := Stored cb |} w
  = (Ok (ct_eqb ta tb && bytes_eqb (concat ca) (concat cb)), w).
Proof.
  unfold content_eq, iter_bytes; simpl. destruct (ct_eqb ta tb); reflexivity.
Qed.

Lemma iter_bytes_stored ct cs w : iter_bytes {| c_type := ct; c_src := Stored cs |} w = (Ok cs, w).
Proof. reflexivity. Qed.

Lemma sum_runs_rle {A} (eqb : A -> A -> bool) l : sum_runs (rle eqb l) = length l.
Proof.
  induction l as [|x l IH]; [reflexivity|]. cbn [rle].
  destruct (rle eqb l) as [|[y n] t]; simpl in *; [lia|].
  destruct (eqb x y); simpl; lia.
Qed.

Lemma rle_forall {A} (eqb : A -> A -> bool) (P : A -> bool) l :
  forallb P l = true -> forallb (fun p => P (fst p)) (rle eqb l) = true.
Proof.
  induction l as [|x l IH]; [reflexivity|]. simpl. intro H. apply andb_true_iff in H as [Hx Hl].
  specialize (IH Hl). destruct (rle eqb l) as [|[y n] t]; simpl in *; [rewrite Hx; reflexivity|].
  destruct (eqb x y); simpl; [exact IH|]. rewrite Hx. exact IH.
Qed.

Lemma splits_concat l : Forall (fun s => concat s = l) (splits l).
Proof.
  induction l as [|x r IH]; [repeat constructor|].
  cbn [splits]. destruct r as [|y r']; [repeat constructor|].
  apply Forall_forall. intros s Hs. apply in_flat_map in Hs as [s0 [H0 Hs]].
  rewrite Forall_forall in IH. specialize (IH s0 H0).
  destruct s0 as [|c t]; [destruct Hs|].
  destruct Hs as [<-|[<-|[]]]; simpl in *; rewrite IH; reflexivity.
Qed.

Lemma with_empties_concat s : concat (with_empties s) = concat s.
Proof.
  unfold with_empties. simpl. induction s as [|c s IH]; [reflexivity|]. simpl. rewrite IH. reflexivity.
Qed.

Lemma all_splits_concat l : Forall (fun s => concat s = l) (all_splits l).
Proof.
  apply Forall_app; split; [apply splits_concat|]. apply Forall_map.
  eapply Forall_impl; [|apply splits_concat]. intros s <-. apply with_empties_concat.
Qed.

Theorem splits_holds cs data : spec_okb (ISplits cs data) (model (ISplits cs data)) = true.
Proof.
  cbn [spec_okb model]. rewrite sum_runs_rle, map_length, Nat.eqb_refl. cbn [andb].
  apply rle_forall. rewrite forallb_map. apply forallb_forall. intros s Hs.
  pose proof (all_splits_concat data) as H. rewrite Forall_forall in H. rewrite <- (H s Hs).
  apply text_okb_stored.
Qed.

Definition free (q : N -> bool) (s : str) : Prop := Forall (fun c => q c = false) s.

Lemma forallb_free (p q : N -> bool) s : (forall c, p c = true -> q c = false) -> forallb p s = true -> free q s.
Proof. intros H Hs. rewrite forallb_forall in Hs. apply Forall_forall. intros c Hc. apply H, Hs, Hc. Qed.

Lemma in_str_free c s : in_str c s = false -> free (fun x => x =? c)%N s.
Proof.
  unfold in_str. induction s as [|x s IH]; simpl; intro H; [constructor|].
  apply orb_false_iff in H as [H1 H2]. constructor; [rewrite N.eqb_sym; exact H1|exact (IH H2)].
Qed.

(* where a scan for q-free characters stops *)
Definition stops (q : N -> bool) (X : str) : Prop := match X with [] => True | c :: _ => q c = true end.

Lemma span_free q a X : free q a -> stops q X -> span (fun c => negb (q c)) (a ++ X) = (a, X).
Proof.
  intros Ha HX. induction Ha as [|x a Hx _ IH]; simpl.
  - destruct X as [|c r]; [reflexivity|]. simpl in *. rewrite HX. reflexivity.
  - rewrite Hx, IH. reflexivity.
Qed.

(* the characters of a lower-case token (the predicate of token_ok) *)
Definition tchar (c : N) : bool := token_char c && negb (is_upper c).

Lemma tchar_end c : tchar c = true -> token_end c = false.
Proof.
  unfold tchar, token_char. intro H. apply andb_true_iff in H as [H _]. apply andb_true_iff in H as [_ H].
  apply negb_true_iff, H.
Qed.

(* ';' and '/' end a token (token_end_59, token_end_47), so a token has none *)
Lemma tchar_not d : token_end d = true -> forall c, tchar c = true -> (c =? d)%N = false.
Proof. intros Hd c Hc. destruct (N.eqb_spec c d) as [->|]; [|reflexivity]. rewrite (tchar_end d Hc) in Hd. discriminate. Qed.

Lemma attr_char_end c : attr_char c = true -> attr_end c = false.
Proof. unfold attr_char. intro H. apply andb_true_iff in H as [_ H]. apply negb_true_iff. exact H. Qed.

Lemma tchar_space c : tchar c = true -> is_space c = false.
Proof.
  unfold tchar, token_char, printable, is_space. intro H. apply andb_true_iff in H as [H _].
  apply andb_true_iff in H as [H _]. apply andb_true_iff in H as [H1 H2]. apply N.leb_le in H1, H2.
  rewrite (proj2 (N.leb_gt c 13)), (proj2 (N.leb_gt c 32)) by lia. rewrite !andb_false_r. reflexivity.
Qed.

Lemma tchar_upper c : tchar c = true -> is_upper c = false.
Proof. unfold tchar. intro H. apply andb_true_iff in H as [_ H]. apply negb_true_iff, H. Qed.

Lemma attr_char_not_wsp c : attr_char c = true -> is_wsp c = false.
Proof.
  unfold attr_char, attr_end, token_end. intro H. apply andb_true_iff in H as [_ H]. apply negb_true_iff in H.
  apply orb_false_iff in H as [H _]. apply orb_false_iff in H as [_ H]. exact H.
Qed.

Lemma lstrip_id s : free is_space s -> lstrip s = s.
Proof. unfold lstrip. intros [|c r Hc _]; [reflexivity|]. simpl. rewrite Hc. reflexivity. Qed.

Lemma strip_id s : free is_space s -> strip s = s.
Proof. intro H. unfold strip. rewrite (lstrip_id s H), (lstrip_id _ (Forall_rev H)). apply rev_involutive. Qed.

Lemma lower_id s : free is_upper s -> lower s = s.
Proof.
  induction 1 as [|c s Hc _ IH]; simpl; [reflexivity|].
  rewrite IH. unfold lower1. unfold is_upper in Hc. rewrite Hc. reflexivity.
Qed.

Lemma count_char_app c a b : count_char c (a ++ b) = count_char c a + count_char c b.
Proof. induction a as [|x a IH]; simpl; [reflexivity|]. rewrite IH. lia. Qed.

Lemma count_char_zero c s : free (fun x => x =? c)%N s -> count_char c s = 0.
Proof. induction 1 as [|x s Hx _ IH]; simpl; [reflexivity|]. rewrite Hx, IH. reflexivity. Qed.

Lemma split_on_none c s : free (fun x => x =? c)%N s -> split_on c s = [s].
Proof. induction 1 as [|x s Hx _ IH]; simpl; [reflexivity|]. rewrite Hx, IH. reflexivity. Qed.

Lemma split_on_app c a b : free (fun x => x =? c)%N a -> split_on c (a ++ c :: b) = a :: split_on c b.
Proof.
  induction 1 as [|x a Hx _ IH]; simpl; [rewrite N.eqb_refl; reflexivity|]. rewrite Hx, IH. reflexivity.
Qed.

Lemma bqs_plain : forall v acc t, free (fun c => c =? 92)%N v -> free (fun c => c =? DQ)%N v ->
  bqs false acc (v ++ DQ :: t) = (rev acc ++ v, t).
Proof.
  induction v as [|c v IH]; intros acc t H1 H2.
  - simpl. rewrite app_nil_r. reflexivity.
  - inversion H1 as [|? ? E1 H1']. inversion H2 as [|? ? E2 H2']. subst. cbv beta in E1, E2.
    cbn [app bqs]. rewrite E1, E2, (IH _ _ H1' H2'). simpl. rewrite <- app_assoc. reflexivity.
Qed.

(* what parse_params needs of a rendered parameter *)
Definition okq (kv : str * str) : Prop :=
  fst kv <> [] /\ forallb attr_char (fst kv) = true
  /\ free (fun c => c =? 92)%N (snd kv) /\ free (fun c => c =? DQ)%N (snd kv).

Definition tail_of (qs : dict) : str := flat_map (fun q => 59%N :: 32%N :: item q) qs.

Lemma item_app kv t : item kv ++ t = fst kv ++ 61%N :: 34%N :: snd kv ++ 34%N :: t.
Proof. unfold item. rewrite <- !app_assoc. reflexivity. Qed.

Lemma attr_end_61 : attr_end 61 = true. Proof. reflexivity. Qed.
Lemma token_end_47 : token_end 47 = true. Proof. reflexivity. Qed.
Lemma token_end_59 : token_end 59 = true. Proof. reflexivity. Qed.

(* one unit of fuel per parameter *)
Lemma parse_params_ok : forall fuel q rest, okq q -> Forall okq rest -> length rest < fuel ->
  parse_params fuel (32%N :: item q ++ tail_of rest) = Some (q :: rest).
Proof.
  induction fuel as [|f IH]; intros [name v] rest [Hne [Hn [Hv1 Hv2]]] Hrest Hf; [inversion Hf|].
  cbn [fst snd] in *. destruct name as [|c name]; [congruence|].
  assert (Hw : is_wsp c = false).
  { cbn [forallb] in Hn. apply andb_true_iff in Hn as [Hc _]. apply attr_char_not_wsp, Hc. }
  rewrite item_app. cbn [fst snd parse_params span app]. change (is_wsp 32) with true. cbn iota. rewrite Hw. cbn [snd].
  set (t := tail_of rest).
  change (c :: name ++ 61%N :: 34%N :: v ++ 34%N :: t) with ((c :: name) ++ 61%N :: 34%N :: v ++ 34%N :: t).
  rewrite (span_free attr_end (c :: name) (61%N :: 34%N :: v ++ 34%N :: t) (forallb_free _ _ _ attr_char_end Hn) eq_refl).
  cbn iota beta. change (34%N :: t) with (DQ :: t). rewrite (bqs_plain v [] t Hv1 Hv2). subst t.
  destruct Hrest as [|q2 rest Hq2 Hrest]; [reflexivity|].
  cbn [tail_of flat_map app]. fold (tail_of rest).
  rewrite (IH q2 rest Hq2 Hrest) by (simpl in Hf; lia). reflexivity.
Qed.

Lemma tail_of_length qs : length qs <= length (tail_of qs).
Proof. induction qs as [|q qs IH]; simpl; [lia|]. rewrite app_length. lia. Qed.

Lemma join_items q rest : sb "; " ++ join (sb "; ") (map item (q :: rest)) = 59%N :: 32%N :: item q ++ tail_of rest.
Proof.
  change (sb "; ") with [59%N; 32%N]. cbn [map join app]. do 3 f_equal.
  induction rest as [|r rest IH]; [reflexivity|]. cbn [map flat_map tail_of]. rewrite IH. reflexivity.
Qed.

Definition tok (s : str) : Prop := s <> [] /\ forallb tchar s = true.

Lemma token_ok_tok s : token_ok s = true -> tok s.
Proof. unfold token_ok. intro H. apply andb_true_iff in H as [H1 H2]. split; [destruct s; discriminate|exact H2]. Qed.

Lemma tok_free q s : (forall c, tchar c = true -> q c = false) -> tok s -> free q s.
Proof. intros H [_ Hs]. exact (forallb_free tchar q s H Hs). Qed.

Lemma header_params_ok t u qs : tok t -> tok u -> Forall okq qs ->
  header_params (t ++ 47%N :: u ++ tail_of qs) = Some qs.
Proof.
  intros Ht Hu Hq. unfold header_params.
  rewrite (span_free _ t (47%N :: u ++ tail_of qs) (tok_free token_end t tchar_end Ht) eq_refl).
  destruct Ht as [Ht _]. destruct t as [|t0 t']; [congruence|].
  rewrite (span_free _ u (tail_of qs) (tok_free token_end u tchar_end Hu)) by (destruct qs; [exact I|reflexivity]).
  destruct Hu as [Hu _]. destruct u as [|u0 u']; [congruence|].
  destruct Hq as [|q rest Hq1 Hq2]; [reflexivity|].
  cbn [tail_of flat_map app]. fold (tail_of rest). apply parse_params_ok; [exact Hq1|exact Hq2|].
  pose proof (tail_of_length rest). cbn [length]. rewrite app_length. lia.
Qed.

Lemma head_free q t u : (forall c, tchar c = true -> q c = false) -> q 47%N = false -> tok t -> tok u ->
  free q (t ++ 47%N :: u).
Proof.
  intros H H47 Ht Hu. apply Forall_app. split; [exact (tok_free q t H Ht)|].
  constructor; [exact H47|exact (tok_free q u H Hu)].
Qed.

Lemma get_content_type_ok t u X : tok t -> tok u -> stops (fun c => c =? 59)%N X ->
  get_content_type (t ++ 47%N :: u ++ X) = t ++ 47%N :: u.
Proof.
  intros Ht Hu HX. unfold get_content_type.
  change (t ++ 47%N :: u ++ X) with (t ++ (47%N :: u) ++ X). rewrite app_assoc, (span_free (fun c => c =? 59)%N).
  - cbn [fst]. rewrite (strip_id _ (head_free is_space t u tchar_space eq_refl Ht Hu)),
      (lower_id _ (head_free is_upper t u tchar_upper eq_refl Ht Hu)), count_char_app.
    cbn [count_char]. change (47 =? 47)%N with true.
    rewrite (count_char_zero 47 t (tok_free _ t (tchar_not 47 token_end_47) Ht)),
      (count_char_zero 47 u (tok_free _ u (tchar_not 47 token_end_47) Hu)). reflexivity.
  - exact (head_free (fun c => c =? 59)%N t u (tchar_not 59 token_end_59) eq_refl Ht Hu).
  - exact HX.
Qed.

Lemma lookup_none k d : ~ In k (map fst d) -> lookup k d = None.
Proof.
  induction d as [|[k' v] d IH]; simpl; intro H; [reflexivity|].
  destruct (str_eqb k' k) eqn:E.
  - apply str_eqb_spec in E. subst. exfalso. apply H. left. reflexivity.
  - apply IH. intro Hin. apply H. right. exact Hin.
Qed.

Lemma dict_set_new d k v : ~ In k (map fst d) -> dict_set d k v = d ++ [(k, v)].
Proof.
  induction d as [|[k' v'] d IH]; simpl; intro H; [reflexivity|].
  destruct (str_eqb k' k) eqn:E.
  - apply str_eqb_spec in E. subst. exfalso. apply H. left. reflexivity.
  - rewrite IH; [reflexivity|]. intro Hin. apply H. right. exact Hin.
Qed.

(* a step that appends every entry with a new key rebuilds the list of entries *)
Lemma fold_append_id (P : str * str -> Prop) (step : dict -> str * str -> dict) :
  (forall d kv, P kv -> ~ In (fst kv) (map fst d) -> step d kv = d ++ [kv]) ->
  forall qs acc, Forall P qs -> NoDup (map fst (acc ++ qs)) -> fold_left step qs acc = acc ++ qs.
Proof.
  intros Hstep. induction qs as [|kv qs IH]; intros acc HF H; simpl; [rewrite app_nil_r; reflexivity|].
  inversion HF as [|? ? Hkv HF']; subst. rewrite Hstep; [|exact Hkv|].
  - rewrite IH; [rewrite <- app_assoc; reflexivity|exact HF'|rewrite <- app_assoc; exact H].
  - rewrite map_app in H. simpl in H. apply NoDup_remove_2 in H. intro Hin. apply H, in_or_app. left. exact Hin.
Qed.

Lemma first_wins_id qs : NoDup (map fst qs) -> first_wins qs = qs.
Proof.
  intro H. apply (fold_append_id (fun _ => True)) with (acc := []); [|apply Forall_forall; auto|exact H].
  intros d kv _ Hn. rewrite (lookup_none _ _ Hn). reflexivity.
Qed.

Lemma lowered_id qs : NoDup (map fst qs) -> Forall (fun kv => lower (fst kv) = fst kv) qs -> lowered qs = qs.
Proof.
  intros H HF. apply (fold_append_id (fun kv => lower (fst kv) = fst kv)) with (acc := []); [|exact HF|exact H].
  intros d [k v] Hk Hn. simpl in *. rewrite Hk. apply dict_set_new, Hn.
Qed.

Lemma cut_comma_id v : in_str 44 v = false -> cut_comma v = v.
Proof.
  intro H. unfold cut_comma. pose proof (span_free (fun c => c =? 44)%N v [] (in_str_free 44 v H) I) as E.
  rewrite app_nil_r in E. rewrite E. reflexivity.
Qed.

Lemma fix_charset_id qs :
  Forall (fun kv => negb (str_eqb (fst kv) s_charset) || negb (in_str 44 (snd kv)) = true) qs -> fix_charset qs = qs.
Proof.
  unfold fix_charset. induction 1 as [|[k v] qs Hkv _ IH]; simpl; [reflexivity|]. rewrite IH. f_equal.
  simpl in Hkv. destruct (str_eqb k s_charset); [|reflexivity].
  simpl in Hkv. apply negb_true_iff in Hkv. rewrite (cut_comma_id v Hkv). reflexivity.
Qed.

Lemma distinct_NoDup l : distinct l = true -> NoDup l.
Proof.
  induction l as [|x l IH]; simpl; intro H; [constructor|].
  apply andb_true_iff in H as [H1 H2]. constructor; [|apply IH; exact H2].
  intro Hin. apply negb_true_iff in H1.
  assert (existsb (str_eqb x) l = true); [|congruence].
  apply existsb_exists. exists x. split; [exact Hin|apply str_eqb_refl].
Qed.

Lemma lookup_in d : NoDup (map fst d) -> forall k v, In (k, v) d -> lookup k d = Some v.
Proof.
  induction d as [|[k' v'] d IH]; simpl; intros H k v Hin; [destruct Hin|].
  inversion H as [|? ? Hn Hd]; subst.
  destruct Hin as [E|Hin].
  - injection E as -> ->. rewrite str_eqb_refl. reflexivity.
  - destruct (str_eqb k' k) eqn:E.
    + apply str_eqb_spec in E. subst. exfalso. apply Hn. apply (in_map fst) in Hin. exact Hin.
    + apply IH; assumption.
Qed.

Lemma dict_eqb_perm a b : Permutation a b -> NoDup (map fst b) -> dict_eqb a b = true.
Proof.
  intros P Hb. unfold dict_eqb. rewrite (Permutation_length P), Nat.eqb_refl. simpl.
  apply forallb_forall. intros [k v] Hin. simpl.
  rewrite (lookup_in b Hb k v (Permutation_in _ P Hin)). simpl. apply str_eqb_refl.
Qed.

(* a parameter of a wf_ct type: parses back, lower-case name, charset without ',' *)
Record good (kv : str * str) : Prop := {
  g_okq : okq kv;
  g_low : lower (fst kv) = fst kv;
  g_cs : negb (str_eqb (fst kv) s_charset) || negb (in_str 44 (snd kv)) = true }.

Lemma wf_ct_unpack ct : wf_ct ct = true ->
  tok (ct_type ct) /\ tok (ct_sub ct) /\ NoDup (map fst (ct_params ct)) /\ Forall good (ct_params ct).
Proof.
  unfold wf_ct, mime_dom. intro H.
  apply andb_true_iff in H as [H Hx]. apply andb_true_iff in H as [H Hd].
  apply andb_true_iff in H as [H Hp]. apply andb_true_iff in H as [Ht Hu].
  split; [apply token_ok_tok, Ht|]. split; [apply token_ok_tok, Hu|]. split; [apply distinct_NoDup, Hd|].
  apply Forall_forall. intros [k v] Hin.
  rewrite forallb_forall in Hp, Hx. specialize (Hp _ Hin). specialize (Hx _ Hin). cbn [fst snd] in Hp, Hx.
  (* the parameter is in the domain ... *)
  apply andb_true_iff in Hp as [Hn Hv]. unfold name_ok in Hn. apply andb_true_iff in Hn as [Hn1 Hn2].
  (* ... of value_ok only its first conjunct, the character class, is needed *)
  unfold value_ok in Hv. do 5 (apply andb_true_iff in Hv as [Hv _]).
  (* ... and survives: lower-case name, no backslash, charset without ',' *)
  apply andb_true_iff in Hx as [Hx Hc]. apply andb_true_iff in Hx as [Hl Hb]. apply negb_true_iff in Hb.
  constructor; cbn [fst snd]; [|apply lower_id, (forallb_free _ _ _ (fun c H => proj1 (negb_true_iff _) H) Hl)|exact Hc].
  split; [destruct k; discriminate|]. split; [exact Hn2|].
  split; [exact (in_str_free 92 v Hb)|]. apply (forallb_free value_char _ v); [|exact Hv].
  intros c Hvc. unfold value_char in Hvc. apply andb_true_iff in Hvc as [_ Hq]. apply negb_true_iff, Hq.
Qed.

Theorem mime_roundtrip ct : wf_ct ct = true ->
  exists ct', make_content_type (render ct) = Ok ct'
              /\ ct_type ct' = ct_type ct /\ ct_sub ct' = ct_sub ct
              /\ Permutation (ct_params ct) (ct_params ct').
Proof.
  intro Hwf. destruct (wf_ct_unpack ct Hwf) as [Ht [Hu [Hnd Hg]]].
  destruct ct as [t u ps]. cbn [ct_type ct_sub ct_params] in *.
  (* the sorted items are the items of a permutation qs of ps *)
  pose proof (Permutation_sym (isort_perm str_leb (map item ps))) as Hp0.
  apply Permutation_map_inv in Hp0 as [qs [Eqs Pqs]].
  assert (Hgq : Forall good qs) by exact (Permutation_Forall Pqs Hg).
  assert (Hndq : NoDup (map fst qs)).
  { exact (Permutation_NoDup (Permutation_map fst Pqs) Hnd). }
  assert (Hren : render {| ct_type := t; ct_sub := u; ct_params := ps |} = t ++ 47%N :: u ++ tail_of qs).
  { unfold render. cbn [ct_type ct_sub ct_params]. change (sb "/") with [47%N]. cbn [app]. do 2 f_equal.
    pose proof (Permutation_length Pqs) as L.
    destruct ps as [|p ps'], qs as [|q rest]; try discriminate L; [reflexivity|]. rewrite Eqs, join_items. reflexivity. }
  exists {| ct_type := t; ct_sub := u; ct_params := qs |}. cbn [ct_type ct_sub ct_params].
  split; [|repeat split; exact Pqs].
  unfold make_content_type. rewrite Hren.
  rewrite (header_params_ok t u qs Ht Hu (Forall_impl _ g_okq Hgq)).
  rewrite (get_content_type_ok t u (tail_of qs) Ht Hu) by (destruct qs; [exact I|reflexivity]).
  pose proof (tok_free _ t (tchar_not 47 token_end_47) Ht) as Ft47.
  replace (str_eqb (t ++ 47%N :: u) (sb "*")) with false.
  2:{ destruct Ht as [Hn _]. destruct t as [|t0 [|t1 t']]; [congruence| |]; symmetry; apply andb_false_r. }
  rewrite (split_on_app 47 t u Ft47), (split_on_none 47 u (tok_free _ u (tchar_not 47 token_end_47) Hu)).
  rewrite (strip_id t (tok_free _ t tchar_space Ht)), (strip_id u (tok_free _ u tchar_space Hu)).
  rewrite (first_wins_id qs Hndq), (lowered_id qs Hndq (Forall_impl _ g_low Hgq)).
  rewrite (fix_charset_id qs (Forall_impl _ g_cs Hgq)). reflexivity.
Qed.

Lemma ctype_eqb_spec a b : ctype_eqb a b = true <-> a = b.
Proof.
  destruct a as [t1 u1 p1], b as [t2 u2 p2]. unfold ctype_eqb, dict_eqb_exact; simpl.
  pose proof (list_eqb_spec _ (pair_eqb_spec _ _ str_eqb_spec str_eqb_spec)) as Hd. split.
  - intro H. apply andb_true_iff in H as [H H3]. apply andb_true_iff in H as [H1 H2].
    apply str_eqb_spec in H1, H2. apply Hd in H3. congruence.
  - intro E. injection E as -> -> ->. rewrite !str_eqb_refl. apply Hd. reflexivity.
Qed.

Lemma dict_eqb_iff a b : dict_eqb a b = true <->
  length a = length b /\ forall kv, In kv a -> lookup (fst kv) b = Some (snd kv).
Proof.
  unfold dict_eqb. split.
  - intro H. apply andb_true_iff in H as [H1 H2]. rewrite forallb_forall in H2.
    split; [apply Nat.eqb_eq, H1|]. intros kv Hin. apply (option_eqb_spec str_eqb str_eqb_spec), H2, Hin.
  - intros [H1 H2]. apply andb_true_iff. split; [apply Nat.eqb_eq, H1|].
    apply forallb_forall. intros kv Hin. apply (option_eqb_spec str_eqb str_eqb_spec), H2, Hin.
Qed.

Lemma ct_eqb_iff a b : ct_eqb a b = true <-> CtSame a b.
Proof.
  unfold ct_eqb, CtSame. split.
  - intro H. apply andb_true_iff in H as [H H3]. apply andb_true_iff in H as [H1 H2].
    apply str_eqb_spec in H1, H2. apply dict_eqb_iff in H3. exact (conj H1 (conj H2 H3)).
  - intros (H1 & H2 & H3). rewrite H1, H2, !str_eqb_refl. cbn [andb]. apply dict_eqb_iff, H3.
Qed.

Theorem mime_roundtrip_same ct : wf_ct ct = true ->
  exists ct', make_content_type (render ct) = Ok ct' /\ CtSame ct' ct.
Proof.
  intro Hwf. destruct (mime_roundtrip ct Hwf) as [ct' [E [E1 [E2 P]]]].
  exists ct'. split; [exact E|]. apply ct_eqb_iff. unfold ct_eqb. rewrite E1, E2, !str_eqb_refl. cbn [andb].
  apply dict_eqb_perm; [apply Permutation_sym; exact P|].
  destruct (wf_ct_unpack ct Hwf) as [_ [_ [Hnd _]]]. exact Hnd.
Qed.

Theorem mime_holds ct : wf_ct ct = true -> spec_okb (IMime ct) (model (IMime ct)) = true.
Proof.
  intro Hwf. destruct (mime_roundtrip_same ct Hwf) as [ct' [E S]].
  cbn [spec_okb model]. rewrite E, (proj2 (ctype_eqb_spec ct ct) eq_refl). apply ct_eqb_iff, S.
Qed.

Section Readers.
  Variable C : codec.

  Lemma ti_step_ended it : ti_end it <> None -> ti_step C it = it.
  Proof. unfold ti_step. destruct (ti_end it); [reflexivity|congruence]. Qed.

  Lemma ti_run_ended k it : ti_end it <> None -> ti_run C k it = it.
  Proof. induction k as [|k IH]; intro H; [reflexivity|]. cbn [ti_run]. rewrite (ti_step_ended it H). exact (IH H). Qed.

  (* ti_run_ended for the number of steps ti_finish takes *)
  Lemma ti_finish_done it : ti_end it <> None -> ti_finish C it = it.
  Proof. apply ti_run_ended. Qed.

  (* a next() in between does not change what the reader will have collected at the end *)
  Lemma ti_finish_step it : ti_finish C (ti_step C it) = ti_finish C it.
  Proof.
    destruct it as [dec rest acc [e|]]; [rewrite ti_step_ended by (cbn [ti_end]; discriminate); reflexivity|].
    destruct rest as [|c r]; unfold ti_finish at 2; cbn [ti_rest length ti_run]; unfold ti_step;
      cbn [ti_end ti_rest ti_dec ti_acc].
    - destruct (flush C dec); apply ti_finish_done; cbn [ti_end]; discriminate.
    - destruct (feed C dec c) as [[s' out]|]; [reflexivity|].
      rewrite ti_run_ended by (cbn [ti_end]; discriminate). apply ti_finish_done. cbn [ti_end]. discriminate.
  Qed.

  (* draining a suspended reader is the rest of the generator loop *)
  Lemma ti_finish_running : forall rest dec acc,
    let it := {| ti_dec := dec; ti_rest := rest; ti_acc := acc; ti_end := None |} in
    ti_result C (ti_finish C it)
    = match iter_text_loop C dec rest with
      | None => Raised UnicodeDecodeError
      | Some pieces => Ok (acc ++ concat pieces)
      end
    /\ ti_end (ti_finish C it) <> None.
  Proof.
    induction rest as [|c r IH]; intros dec acc it; subst it; rewrite <- ti_finish_step; unfold ti_step;
      cbn [ti_end ti_rest ti_dec ti_acc iter_text_loop].
    - destruct (flush C dec) as [fin|] eqn:E; rewrite ti_finish_done by (cbn [ti_end]; discriminate);
        cbn [ti_result ti_end ti_acc]; (split; [|discriminate]).
      + rewrite (flush_nil C dec fin E). reflexivity.
      + reflexivity.
    - destruct (feed C dec c) as [[s' out]|].
      + destruct (IH s' (acc ++ out)) as [IH1 IH2]. split; [|exact IH2]. rewrite IH1.
        destruct (iter_text_loop C s' r) as [pieces|]; [|reflexivity].
        cbn [concat]. rewrite app_assoc. reflexivity.
      + rewrite ti_finish_done by (cbn [ti_end]; discriminate). cbn [ti_result ti_end]. split; [reflexivity|discriminate].
  Qed.

  Lemma ti_finish_ended it : ti_end (ti_finish C it) <> None.
  Proof.
    destruct it as [dec rest acc [e|]]; [|apply (ti_finish_running rest dec acc)].
    rewrite ti_finish_done; cbn [ti_end]; discriminate.
  Qed.

  Lemma ti_finish_idem it : ti_finish C (ti_finish C it) = ti_finish C it.
  Proof. apply ti_finish_done, ti_finish_ended. Qed.

  Lemma ti_fresh_result chunks : ti_result C (ti_finish C (ti_fresh C chunks)) = whole C (concat chunks).
  Proof.
    unfold ti_fresh. rewrite (proj1 (ti_finish_running chunks (dinit C) [])). cbn [app]. apply iter_text_whole.
  Qed.
End Readers.

Lemma upd_length {A} (x : A) : forall l i, length (upd i x l) = length l.
Proof. induction l as [|y l IH]; intros [|i]; simpl; try reflexivity. rewrite IH. reflexivity. Qed.

Lemma Forall_upd {A} (P : A -> Prop) (x : A) : forall l i, Forall P l -> P x -> Forall P (upd i x l).
Proof.
  induction l as [|y l IH]; intros [|i] H Hx; simpl; try exact H; inversion H; subst; constructor; auto.
Qed.

Lemma Forall_nth_error {A} (P : A -> Prop) l i (x : A) : Forall P l -> nth_error l i = Some x -> P x.
Proof. intros H E. rewrite Forall_forall in H. apply H. exact (nth_error_In _ _ E). Qed.

Lemma nth_error_ltb {A} (l : list A) i x : nth_error l i = Some x -> (i <? length l) = true.
Proof. intro E. apply Nat.ltb_lt, nth_error_Some. congruence. Qed.

Lemma nth_error_leb {A} (l : list A) i : nth_error l i = None -> (length l <=? i) = true.
Proof. intro E. apply Nat.leb_le, nth_error_None, E. Qed.

(* if every reader "will end right" (P), a new one does, and next()/draining keep it so, then every complete
   read of every history is right: operations on the other readers never touch it *)
Lemma hist_meets (I : Type) (fresh : option I) (step finish : I -> I) (result : I -> tres) (astext : tres)
                 (text : bool) (ok : tres -> bool) (P : I -> Prop) :
  (forall f, fresh = Some f -> P f) -> (fresh = None -> text = false) ->
  (forall it, P it -> P (step it)) -> (forall it, P it -> P (finish it)) ->
  (forall it, P it -> ok (result (finish it)) = true) -> ok astext = true ->
  forall ops its, Forall P its ->
    hist_okb text ok (length its) ops (hist I fresh step finish result astext its ops) = true.
Proof.
  intros Hfresh Hnone Hstep Hfin Hres Has.
  induction ops as [|op ops IH]; intros its HP; [reflexivity|].
  destruct op as [|i|i|]; cbn [hist].
  - destruct fresh as [f|] eqn:E; cbn [hist_okb].
    + replace (S (length its)) with (length (its ++ [f])) by (rewrite app_length; simpl; lia).
      apply IH, Forall_app. split; [exact HP|]. constructor; [apply Hfresh; reflexivity|constructor].
    + rewrite (Hnone eq_refl) at 1. apply IH, HP.
  - destruct (nth_error its i) as [it|] eqn:E; cbn [hist_okb].
    + rewrite (nth_error_ltb _ _ _ E), <- (upd_length (step it) its i).
      apply IH, Forall_upd; [exact HP|]. apply Hstep, (Forall_nth_error P its i it HP E).
    + rewrite (nth_error_leb _ _ E). apply IH, HP.
  - destruct (nth_error its i) as [it|] eqn:E; cbn [hist_okb].
    + pose proof (Forall_nth_error P its i it HP E) as Hit.
      rewrite (nth_error_ltb _ _ _ E), (Hres it Hit), <- (upd_length (finish it) its i).
      apply IH, Forall_upd; [exact HP|]. apply Hfin, Hit.
    + rewrite (nth_error_leb _ _ E). apply IH, HP.
  - cbn [hist_okb]. rewrite Has. apply IH, HP.
Qed.

(* readers without state: every answer is the same r *)
Lemma hist_const text ok (fresh : option unit) r ops : (fresh = None -> text = false) -> ok r = true ->
  hist_okb text ok 0 ops (hist unit fresh (fun x => x) (fun x => x) (fun _ => r) r [] ops) = true.
Proof. intros Hn Hr. apply (hist_meets unit fresh _ _ _ r text ok (fun _ => True)) with (its := []); auto. Qed.

Theorem hist_holds ct chunks oracle ops : spec_okb (IHist ct chunks oracle ops) (model (IHist ct chunks oracle ops)) = true.
Proof.
  cbn [spec_okb model]. unfold read_history, read_okb.
  destruct (str_eqb (ct_type ct) (sb "text")); cbn [negb]; [|apply hist_const; reflexivity].
  destruct (codec_of (declared_charset ct)) as [C|].
  - apply (hist_meets (titer C) _ _ _ _ _ true _ (fun it => ti_result C (ti_finish C it) = whole C (concat chunks)))
      with (its := []).
    + intros f E. injection E as <-. apply ti_fresh_result.
    + discriminate.
    + intros it H. rewrite ti_finish_step. exact H.
    + intros it H. rewrite ti_finish_idem. exact H.
    + intros it H. rewrite H. apply tres_eqb_refl.
    + rewrite ti_fresh_result. apply tres_eqb_refl.
    + constructor.
  - apply hist_const; [discriminate|]. destruct oracle; [apply tres_eqb_refl|reflexivity].
Qed.

Theorem model_meets_spec i : wf i = true -> finding_F16 i = false -> spec_okb i (model i) = true.
Proof.
  destruct i as [s|d|ct chunks|cs data|r|r|r|b r|ta ca tb cb|ct|ct chunks oracle ops]; intros Hwf Hf.
  - (* text_content: a stored content of type UTF8_TEXT, which canon_ct leaves as it is *)
    cbn [spec_okb model]. simpl in Hwf. apply andb_true_iff. split.
    + rewrite (text_roundtrip s w0 Hwf). apply tres_eqb_refl.
    + exact (text_okb_stored Gen.Ctc16.UTF8_TEXT [utf8_encode s] w0).
  - cbn [spec_okb model]. simpl in Hwf. unfold json_content. rewrite iter_bytes_stored.
    cbn [fst joined concat]. rewrite app_nil_r. unfold whole. rewrite (utf8_roundtrip d Hwf). apply tres_eqb_refl.
  - cbn [spec_okb model]. rewrite iter_bytes_stored. cbn [fst joined]. rewrite bytes_eqb_refl. cbn [andb].
    apply text_okb_stored.
  - apply splits_holds.
  - apply reader_holds. simpl in Hwf. apply Nat.leb_le. exact Hwf.
  - apply snap_holds. simpl in Hwf. apply Nat.leb_le. exact Hwf.
  - apply snaplist_holds.
  - apply readerlist_holds.
  - cbn [spec_okb model]. rewrite content_eq_stored. cbn [fst]. rewrite !eqb_reflx. reflexivity.
  - apply mime_holds. simpl in Hf. apply negb_false_iff. exact Hf.
  - apply hist_holds.
Qed.

Theorem refuted_F16 : exists i, wf i = true /\ finding_F16 i = true /\ spec_okb i (model i) = false.
Proof.
  exists (IMime {| ct_type := sb "text"; ct_sub := sb "plain"; ct_params := [(sb "a", sb "b\c")] |}).
  vm_compute. repeat split.
Qed.

Lemma text_okb_sound ct bs t : text_okb ct bs t = true -> TextOk ct bs t.
Proof.
  unfold text_okb, TextOk. intros H Ht C HC.
  apply str_eqb_spec in Ht. rewrite Ht, HC in H. apply tres_eqb_spec. exact H.
Qed.

Lemma iter_okb_sound n r w : iter_okb n r w = true -> IterOk n r w.
Proof.
  unfold iter_okb, IterOk. destruct w as [bs|e], r as [cs|f]; intro H; try discriminate.
  - exists cs. split; [reflexivity|apply chunks_okb_iff; exact H].
  - apply exn_eqb_spec in H. subst. reflexivity.
Qed.

Lemma joined_okb_sound r w : joined_okb r w = true -> JoinedOk r w.
Proof.
  unfold joined_okb, JoinedOk. destruct w as [bs|e], r as [cs|f]; intro H; try discriminate.
  - exists cs. split; [reflexivity|apply bytes_eqb_spec; exact H].
  - apply exn_eqb_spec in H. subst. reflexivity.
Qed.

Lemma read_okb_sound ct bs oracle t : read_okb ct bs oracle t = true -> ReadOk ct bs oracle t.
Proof.
  unfold read_okb, ReadOk. intros H Ht. apply str_eqb_spec in Ht. rewrite Ht in H.
  destruct (codec_of (declared_charset ct)) as [C|].
  - apply tres_eqb_spec. exact H.
  - intros e ->. apply tres_eqb_spec. exact H.
Qed.

(* one admissible (operation, answer) pair *)
Lemma hist_okb_cons text ok n op ops r rs : hist_okb text ok n (op :: ops) (r :: rs) = true ->
  (exists n', hist_okb text ok n' ops rs = true)
  /\ (op = HAsText -> exists t, r = RRead t) /\ (forall t, r = RRead t -> ok t = true).
Proof.
  intro H. destruct op as [|i|i|], r as [[e|]| | |t0]; cbn [hist_okb] in H; try discriminate H.
  (* the seven admissible pairs are left, in the order of hist_okb's clauses *)
  - (* iter_text() refused *)
    apply andb_true_iff in H as [_ H]. split; [exists n; exact H|]. split; discriminate.
  - (* iter_text() returned a reader: one more *)
    split; [exists (S n); exact H|]. split; discriminate.
  - (* next() on a reader that does not exist *)
    apply andb_true_iff in H as [_ H]. split; [exists n; exact H|]. split; discriminate.
  - (* next() *)
    apply andb_true_iff in H as [_ H]. split; [exists n; exact H|]. split; discriminate.
  - (* draining a reader that does not exist *)
    apply andb_true_iff in H as [_ H]. split; [exists n; exact H|]. split; discriminate.
  - (* a reader drained: its text was checked *)
    apply andb_true_iff in H as [H H']. apply andb_true_iff in H as [_ Hok].
    split; [exists n; exact H'|]. split; [discriminate|]. intros t E. injection E as <-. exact Hok.
  - (* as_text(): answered by a read, which was checked *)
    apply andb_true_iff in H as [Hok H]. split; [exists n; exact H|].
    split; [intros _; exists t0; reflexivity|]. intros t E. injection E as <-. exact Hok.
Qed.

Lemma hist_okb_sound text ok : forall ops rs n, hist_okb text ok n ops rs = true ->
  length rs = length ops
  /\ (forall k, nth_error ops k = Some HAsText -> exists t, nth_error rs k = Some (RRead t))
  /\ (forall k t, nth_error rs k = Some (RRead t) -> ok t = true).
Proof.
  induction ops as [|op ops IH]; intros rs n H.
  - destruct rs; [|discriminate]. split; [reflexivity|]. split; [intros [|k] E; discriminate|intros [|k] t E; discriminate].
  - destruct rs as [|r rs]; [destruct op; discriminate|].
    destruct (hist_okb_cons _ _ _ _ _ _ _ H) as [[n' H'] [Ha Hr]]. destruct (IH rs n' H') as [L [A R]].
    split; [simpl; f_equal; exact L|]. split.
    + intros [|k] Hk; simpl in *.
      * injection Hk as ->. destruct (Ha eq_refl) as [t ->]. eexists; reflexivity.
      * apply A. exact Hk.
    + intros [|k] t Hk; simpl in *.
      * injection Hk as ->. apply Hr. reflexivity.
      * exact (R k t Hk).
Qed.

Lemma reader_okb_sound r cr rc i1 r1 i2 r2 : reader_okb r cr rc i1 r1 i2 r2 = true -> ReaderSpec r cr rc i1 r1 i2 r2.
Proof.
  unfold reader_okb, ReaderSpec. destruct (r_buffer r).
  - destruct (want (r_kind r) (r_data0 r) (r_pos0 r) (r_seek r)) as [bs|e0], cr as [f|]; try discriminate.
    + destruct i1 as [c1|], i2 as [c2|]; rewrite ?andb_false_r; try discriminate.
      intro H. apply andb_true_iff in H as [H H4]. apply andb_true_iff in H as [H H3].
      apply andb_true_iff in H as [H1 H2]. apply andb_true_iff in H4 as [H4 H5].
      apply negb_true_iff in H2, H3. apply chunks_okb_iff in H4. apply chunks_eqb_spec in H5. subst c2.
      repeat split; try assumption. exists c1. auto.
    + intro H. apply exn_eqb_spec in H. subst. reflexivity.
  - destruct cr; [discriminate|]. intro H. apply andb_true_iff in H as [H H3].
    apply andb_true_iff in H as [H1 H2]. apply negb_true_iff in H1.
    repeat split; try assumption; [apply iter_okb_sound; exact H2|].
    unfold want in H3 |- *.
    destruct (start_of (r_kind r) (length (r_data1 r)) (r_pos1 r) (r_seek r)) as [p|e0]; apply iter_okb_sound; exact H3.
Qed.

Lemma snap_okb_sound r cp sm c1 c2 ra og : snap_okb r cp sm c1 c2 ra og = true -> SnapSpec r cp sm c1 c2 ra og.
Proof.
  unfold snap_okb, SnapSpec.
  destruct (want (r_kind r) (r_data0 r) (r_pos0 r) (r_seek r)) as [bs|e0], cp as [f|]; try discriminate.
  - intro H. apply andb_true_iff in H as [H H5]. apply andb_true_iff in H as [H H4].
    apply andb_true_iff in H as [H H3]. apply andb_true_iff in H as [H1 H2]. apply negb_true_iff in H2.
    repeat split; try assumption; apply joined_okb_sound; assumption.
  - intro H. apply exn_eqb_spec in H. subst. reflexivity.
Qed.

Lemma survives_sound c r : survives c r = true -> exists ct', r = Ok ct' /\ CtSame ct' c.
Proof. destruct r as [ct'|]; [|discriminate]. intro H. exists ct'. split; [reflexivity|apply ct_eqb_iff, H]. Qed.

Theorem spec_okb_sound i o : spec_okb i o = true -> Spec i o.
Proof.
  destruct i, o; cbn [spec_okb Spec]; try discriminate; intro H.
  - apply andb_true_iff in H as [H1 H2]. split; [apply tres_eqb_spec, H1|apply text_okb_sound, H2].
  - apply tres_eqb_spec, H.
  - apply andb_true_iff in H as [H1 H2]. split; [apply bytes_eqb_spec, H1|apply text_okb_sound, H2].
  - apply andb_true_iff in H as [H1 H2]. split; [apply Nat.eqb_eq, H1|].
    apply Forall_forall. intros p Hp. rewrite forallb_forall in H2. apply text_okb_sound, H2, Hp.
  - apply reader_okb_sound, H.
  - apply snap_okb_sound, H.
  - unfold snaplist_okb in H. rewrite !andb_true_iff in H. destruct H as [[[H1 H2] H3] H4].
    repeat split; try assumption; apply joined_okb_sound; assumption.
  - apply andb_true_iff in H as [H1 H2]. split; apply joined_okb_sound; assumption.
  - apply andb_true_iff in H as [H1 H2]. apply eqb_prop in H1, H2.
    split; [|exact H2]. rewrite H1. split.
    + intro E. apply andb_true_iff in E as [E1 E2]. split; [apply ct_eqb_iff, E1|apply bytes_eqb_spec, E2].
    + intros [E1 E2]. apply andb_true_iff. split; [apply ct_eqb_iff, E1|apply bytes_eqb_spec, E2].
  - apply andb_true_iff in H as [H0 H]. split; [apply ctype_eqb_spec, H0|apply survives_sound, H].
  - destruct (hist_okb_sound _ _ _ _ _ H) as [L [A R]]. unfold HistSpec. split; [exact L|]. split; [exact A|].
    intros k t Hk. apply read_okb_sound, (R k t Hk).
Qed.

Lemma perr_eqb_spec a b : perr_eqb a b = true <-> a = b.
Proof. destruct a, b; simpl; eqb_components idtac. Qed.

Lemma bres_eqb_spec a b : bres_eqb a b = true <-> alpha_b a = alpha_b b.
Proof.
  unfold bres_eqb. apply res_eqb_spec; [|apply exn_eqb_spec].
  apply pair_eqb_spec; [apply bytes_eqb_spec|apply bool_eqb_spec].
Qed.

Lemma hres_eqb_spec a b : hres_eqb a b = true <-> a = b.
Proof.
  destruct a, b; cbn [hres_eqb]; eqb_components ltac:(first [apply (option_eqb_spec _ exn_eqb_spec) | apply tres_eqb_spec]).
Qed.

Theorem latin1_total bs : decode_whole latin1 bs = Some bs.
Proof.
  unfold decode_whole. simpl.
  assert (H : forall s, feed latin1 s bs = Some (tt, bs)).
  { induction bs as [|b bs IH]; intro s; simpl; [destruct s; reflexivity|]. rewrite IH. reflexivity. }
  rewrite H. simpl. rewrite app_nil_r. reflexivity.
Qed.

Lemma iter_src_heap src w : w_heap (snd (iter_src src w)) = w_heap w.
Proof.
  destruct src as [cs|k n sk|l]; cbn [iter_src snd]; try reflexivity.
  unfold run_reader. fold (start_of k (length (w_data w)) (w_pos w) sk).
  destruct (start_of k (length (w_data w)) (w_pos w) sk) as [p|e]; [|reflexivity].
  destruct (read_loop (length (w_data w) - p + 1) (w_data w) p n (w_sizes w)) as [[[cs p'] r]|]; reflexivity.
Qed.

Lemma heap_set_other : forall h l l' v, l <> l' -> heap_get l' (heap_set l v h) = heap_get l' h.
Proof.
  unfold heap_get. induction h as [|x h IH]; intros l l' v Hne; [destruct l; reflexivity|].
  destruct l as [|l], l' as [|l']; simpl; try reflexivity; try congruence.
  apply IH. congruence.
Qed.

Theorem snapshot c w cp w1 : copy_content c w = (Ok cp, w1) ->
  c_type cp = c_type c
  /\ exists cs w', iter_bytes c w = (Ok cs, w')
                   /\ c_src cp = InList (length (w_heap w))          (* a location that did not exist before *)
                   /\ w_heap w1 = w_heap w ++ [cs]
                   /\ forall w2, heap_get (length (w_heap w)) (w_heap w2) = cs -> iter_bytes cp w2 = (Ok cs, w2).
Proof.
  unfold copy_content. pose proof (iter_src_heap (c_src c) w) as Hh. unfold iter_bytes in *.
  destruct (iter_src (c_src c) w) as [[cs|e] w2]; intro H; [|discriminate].
  cbn [snd] in Hh. unfold alloc in H. injection H as <- <-. cbn [c_type c_src w_heap]. rewrite Hh.
  split; [reflexivity|]. exists cs, w2. repeat split.
  intros w3 H3. cbn [iter_src]. rewrite H3. reflexivity.
Qed.

(* ... so no write to a location that existed when the copy was made (the source's own list included), and no
   change of the stream/file, reaches the copy *)
Theorem snapshot_unaffected c w cp w1 cs w' : copy_content c w = (Ok cp, w1) -> iter_bytes c w = (Ok cs, w') ->
  forall writes : list (loc * list chunk), Forall (fun lv => fst lv < length (w_heap w)) writes ->
  forall d p r sz,
    let w2 := {| w_data := d; w_pos := p; w_reads := r;
                 w_heap := fold_left (fun h lv => heap_set (fst lv) (snd lv) h) writes (w_heap w1);
                 w_sizes := sz |} in
    iter_bytes cp w2 = (Ok cs, w2).
Proof.
  intros Hc Hi writes Hw d p r sz w2.
  destruct (snapshot c w cp w1 Hc) as [_ [cs0 [w0 [Hi0 [Hsrc [Hheap Hget]]]]]].
  rewrite Hi in Hi0. injection Hi0 as <- <-.
  apply Hget. subst w2. cbn [w_heap]. rewrite Hheap.
  assert (G : forall h, heap_get (length (w_heap w)) h = cs ->
              heap_get (length (w_heap w)) (fold_left (fun h lv => heap_set (fst lv) (snd lv) h) writes h) = cs).
  { induction Hw as [|[l v] ws Hl _ IH]; intros h Hh; [exact Hh|]. cbn [fold_left fst snd]. apply IH.
    rewrite heap_set_other; [exact Hh|]. simpl in Hl. lia. }
  apply G. unfold heap_get. rewrite app_nth2, Nat.sub_diag by lia. reflexivity.
Qed.

Lemma concat_nil_nonempty (s : list chunk) : Forall (fun c => c <> []) s -> concat s = [] -> s = [].
Proof.
  destruct s as [|c s]; [reflexivity|]. intros H E. inversion H; subst. simpl in E.
  apply app_eq_nil in E as [E _]. congruence.
Qed.

Theorem splits_complete : forall l s, Forall (fun c => c <> []) s -> concat s = l -> In s (splits l).
Proof.
  induction l as [|x r IH]; intros s Hs E.
  - rewrite (concat_nil_nonempty s Hs E). left. reflexivity.
  - destruct s as [|c0 t]; [discriminate|]. inversion Hs as [|? ? Hc0 Ht]; subst.
    destruct c0 as [|x0 c0']; [congruence|]. simpl in E. injection E as -> E.
    cbn [splits]. destruct r as [|y r'].
    + apply app_eq_nil in E as [-> E]. rewrite (concat_nil_nonempty t Ht E). left. reflexivity.
    + apply in_flat_map. destruct c0' as [|z c0''].
      * simpl in E. exists t. split; [apply IH; assumption|].
        destruct t as [|c t']; [discriminate|]. right. left. reflexivity.
      * exists ((z :: c0'') :: t). split.
        -- apply IH; [constructor; [discriminate|exact Ht]|exact E].
        -- left. reflexivity.
Qed.

Lemma hist_spec ct chunks oracle ops : HistSpec ct chunks oracle ops (read_history ct chunks oracle ops).
Proof. exact (spec_okb_sound _ _ (hist_holds ct chunks oracle ops)). Qed.

Theorem history_answers ct chunks oracle ops :
  length (read_history ct chunks oracle ops) = length ops
  /\ forall k, nth_error ops k = Some HAsText -> exists t, nth_error (read_history ct chunks oracle ops) k = Some (RRead t).
Proof. destruct (hist_spec ct chunks oracle ops) as [L [A _]]. split; assumption. Qed.

Lemma upd_other {A} (x : A) : forall l i j, i <> j -> nth_error (upd j x l) i = nth_error l i.
Proof.
  induction l as [|y l IH]; intros [|i] [|j] H; simpl; try reflexivity; try congruence. apply IH. congruence.
Qed.

Theorem readers_independent C :
  (forall chunks, ti_result C (ti_finish C (ti_fresh C chunks)) = whole C (concat chunks))
  /\ (forall it, ti_finish C (ti_step C it) = ti_finish C it)
  /\ (forall it, ti_finish C (ti_finish C it) = ti_finish C it)
  /\ (forall (its : list (titer C)) i j x, i <> j -> nth_error (upd j x its) i = nth_error its i).
Proof.
  split; [apply ti_fresh_result|]. split; [apply ti_finish_step|]. split; [apply ti_finish_idem|].
  intros its i j x H. apply upd_other. exact H.
Qed.
