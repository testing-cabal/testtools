(* C06 - MatchesSetwise on the boolean matrix rows[i][j] = "matcher i matches value j":
   the greedy loop of the model against the existence of a one-to-one assignment. *)
From Coq Require Import Permutation.
From TT Require Import Lib.Base Lib.ListFacts Lib.Count Lib.Sort Model.Matchers Spec.C06.

Lemma picks_perm_of {A} (l : list A) x rest : In (x, rest) (picks l) -> Permutation l (x :: rest).
Proof.
  revert x rest; induction l as [|y r IH]; intros x rest H; simpl in H; [contradiction|].
  destruct H as [H|H].
  - injection H as -> ->. reflexivity.
  - apply in_map_iff in H as [[a b] [E Hin]]. simpl in E. injection E as <- <-.
    rewrite (IH _ _ Hin). apply perm_swap.
Qed.

Lemma picks_split {A} (l1 l2 : list A) x : In (x, l1 ++ l2) (picks (l1 ++ x :: l2)).
Proof.
  induction l1 as [|y r IH]; simpl; [left; reflexivity|].
  right. apply in_map_iff. exists (x, r ++ l2). split; [reflexivity|exact IH].
Qed.

Lemma picks_of_perm {A} (l : list A) x rest' :
  Permutation l (x :: rest') -> exists rest, In (x, rest) (picks l) /\ Permutation rest rest'.
Proof.
  intro P. assert (Hin : In x l) by (apply (Permutation_in _ (Permutation_sym P)); left; reflexivity).
  apply in_split in Hin as [l1 [l2 ->]].
  exists (l1 ++ l2). split; [apply picks_split|].
  apply Permutation_cons_inv with (a := x). rewrite <- P. apply Permutation_middle.
Qed.

Definition Assignment (rows : list (list bool)) (js : list nat) : Prop :=
  exists rows', Permutation rows rows' /\ Forall2 (fun r j => at_ j r = true) rows' js.

Lemma assign_spec rows js : assign rows js = true <-> Assignment rows js.
Proof.
  revert rows; induction js as [|j t IH]; intro rows; simpl; split.
  - destruct rows; [|discriminate]. intros _. exists []. split; constructor.
  - intros [rows' [P F]]. inversion F; subst. apply Permutation_sym, Permutation_nil in P. subst. reflexivity.
  - intro H. apply existsb_exists in H as [[r rest] [Hin H]]. simpl in H.
    apply andb_true_iff in H as [Hr Ha]. apply IH in Ha as [rows'' [P F]].
    exists (r :: rows''). split; [|constructor; assumption].
    rewrite (picks_perm_of _ _ _ Hin). apply perm_skip. exact P.
  - intros [rows' [P F]]. inversion F as [|r j' rows'' t' Hr F']; subst.
    destruct (picks_of_perm _ _ _ P) as [rest [Hin P']].
    apply existsb_exists. exists (r, rest). split; [exact Hin|]. simpl.
    apply andb_true_iff. split; [exact Hr|]. apply IH. exists rows''. split; assumption.
Qed.

Lemma Assignment_perm rows rows2 js : Permutation rows rows2 -> Assignment rows js -> Assignment rows2 js.
Proof. intros P [r' [P' F]]. exists r'. split; [|exact F]. rewrite <- P. exact P'. Qed.

Lemma take_spec j rem :
  match take j rem with
  | Some rem' => exists r, at_ j r = true /\ Permutation rem (r :: rem')
  | None => Forall (fun r => at_ j r = false) rem
  end.
Proof.
  induction rem as [|r t IH]; simpl; [constructor|].
  destruct (at_ j r) eqn:E; [exists r; split; [exact E|reflexivity]|].
  destruct (take j t) as [t'|]; simpl; [|constructor; assumption].
  destruct IH as [r0 [Hr P]]. exists r0. split; [exact Hr|]. rewrite P. apply perm_swap.
Qed.

Lemma greedy_leftovers js : forall rows rem nm, greedy rows js = (rem, nm) ->
  incl rem rows /\ Forall (fun j => Forall (fun r => at_ j r = false) rem) nm.
Proof.
  induction js as [|j t IH]; intros rows rem nm H; simpl in H.
  - injection H as <- <-. split; [apply incl_refl|constructor].
  - pose proof (take_spec j rows) as T. destruct (take j rows) as [rows'|].
    + destruct (IH _ _ _ H) as [I L]. split; [|exact L]. destruct T as [r [_ P]].
      intros x Hx. apply (Permutation_in _ (Permutation_sym P)). right. apply I, Hx.
    + destruct (greedy rows t) as [r0 nm0] eqn:G. injection H as <- <-.
      destruct (IH _ _ _ G) as [I L]. split; [exact I|]. constructor; [|exact L].
      apply Forall_forall. intros r Hr. apply (proj1 (Forall_forall _ _) T), I, Hr.
Qed.

Lemma greedy_sound js : forall rows, greedy rows js = ([], []) -> Assignment rows js.
Proof.
  induction js as [|j t IH]; intros rows H; simpl in H.
  - injection H as ->. exists []. split; constructor.
  - pose proof (take_spec j rows) as T. destruct (take j rows) as [rows'|].
    + destruct T as [r [Hr P]]. destruct (IH _ H) as [rows'' [P' F]].
      exists (r :: rows''). split; [rewrite P; apply perm_skip; exact P'|constructor; assumption].
    + destruct (greedy rows t) as [r0 nm0]. discriminate.
Qed.

Lemma is_none_true {A} (r : option A) : is_none r = true <-> r = None.
Proof. destruct r; simpl; split; congruence. Qed.
Lemma is_none_ann r : is_none (ann r) = is_none r.
Proof. destruct r; reflexivity. Qed.

Lemma is_none_all_loop fo rs : forall acc, is_none (all_loop fo rs acc) = is_nil acc && forallb is_none rs.
Proof.
  induction rs as [|[d|] t IH]; intro acc; simpl.
  - destruct acc as [|a acc]; [reflexivity|]. simpl.
    destruct (rev acc ++ [a]) eqn:E; [apply app_eq_nil in E as [_ E]; discriminate|reflexivity].
  - rewrite andb_false_r. destruct fo; [reflexivity|]. rewrite IH. reflexivity.
  - apply IH.
Qed.

Lemma is_none_listwise fo len_ok rs : is_none (listwise fo len_ok rs) = len_ok && forallb is_none rs.
Proof. unfold listwise. rewrite is_none_all_loop. destruct len_ok; reflexivity. Qed.

Lemma setwise_post_none rows n : setwise_post rows n = None <-> greedy rows (seq 0 n) = ([], []).
Proof.
  unfold setwise_post. destruct (greedy rows (seq 0 n)) as [rem nm] eqn:G.
  destruct nm as [|j0 nm]; destruct rem as [|r0 rem]; try (split; reflexivity);
    try (split; discriminate).
  split; [|discriminate]. intro H. exfalso.
  (* both a matcher and a value are left over: the first pair is reported, and it does not match *)
  pose proof (proj2 (greedy_leftovers _ _ _ _ G)) as L.
  pose proof (Forall_inv (Forall_inv L)) as Hr0. cbv beta in Hr0.
  apply is_none_true in H. rewrite is_none_ann, is_none_listwise in H. simpl in H.
  rewrite Hr0 in H. discriminate H.
Qed.

(* Completeness: when no column has two matching rows, the row an assignment gives to column j is the only
   one matching j, hence the one [take] removes *)
Definition unamb (rows : list (list bool)) (js : list nat) : Prop :=
  forall j, In j js -> count_true (map (at_ j) rows) <= 1.

Lemma take_unique j : forall l r rest,
  count_true (map (at_ j) l) <= 1 -> In (r, rest) (picks l) -> at_ j r = true -> take j l = Some rest.
Proof.
  induction l as [|x l' IH]; intros r rest C Hin Hr; simpl in Hin; [contradiction|].
  simpl. destruct Hin as [E|Hin].
  - injection E as -> ->. rewrite Hr. reflexivity.
  - apply in_map_iff in Hin as [[a b] [E Hin]]. simpl in E. injection E as <- <-.
    assert (C1 : 1 <= count_true (map (at_ j) l')).
    { apply (count_pos (fun b : bool => b)). exists true. split; [|reflexivity].
      apply in_map_iff. exists a. split; [exact Hr|].
      apply (Permutation_in _ (Permutation_sym (picks_perm_of _ _ _ Hin))). left; reflexivity. }
    unfold count_true in C, C1. simpl in C. destruct (at_ j x) eqn:Ex; simpl in C; [lia|].
    rewrite (IH a b); [reflexivity| |exact Hin|exact Hr]. unfold count_true. exact C.
Qed.

Lemma unamb_perm rows rows' js : Permutation rows rows' -> unamb rows js -> unamb rows' js.
Proof.
  intros P U j Hj. unfold count_true. rewrite <- (count_perm _ _ _ (Permutation_map (at_ j) P)). apply U; exact Hj.
Qed.

Lemma unamb_tail r rest js : unamb (r :: rest) js -> unamb rest js.
Proof.
  intros U j Hj. specialize (U j Hj). unfold count_true in *. simpl in U.
  destruct (at_ j r); simpl in U; lia.
Qed.

Lemma greedy_complete js : forall rows, unamb rows js -> assign rows js = true -> greedy rows js = ([], []).
Proof.
  induction js as [|j t IH]; intros rows U H; simpl in *.
  - destruct rows; [reflexivity|discriminate].
  - apply existsb_exists in H as [[r rest] [Hin H]]. simpl in H. apply andb_true_iff in H as [Hr Ha].
    rewrite (take_unique j rows r rest); [|apply U; left; reflexivity|exact Hin|exact Hr].
    apply IH; [|exact Ha].
    apply (unamb_tail r), (unamb_perm rows); [apply picks_perm_of; exact Hin|].
    intros j' Hj'. apply U. right; exact Hj'.
Qed.

Lemma amb_m_false rows n : amb_m rows n = false <-> unamb rows (seq 0 n).
Proof.
  unfold amb_m, unamb. rewrite existsb_false.
  split; intros H j Hj; apply Nat.ltb_ge; apply H; exact Hj.
Qed.

(* a set iterates its members in the order of their ranks *)
Lemma reorder_perm {A} rk (l : list A) : Permutation l (reorder rk l).
Proof.
  unfold reorder.
  rewrite <- (map_snd_combine (seq 0 (length l)) l) at 1 by apply seq_length.
  apply Permutation_map. apply isort_perm.
Qed.

Theorem setwise_sound_m rk rows n : setwise_post (reorder rk rows) n = None -> assign rows (seq 0 n) = true.
Proof.
  intro H. apply setwise_post_none in H. apply greedy_sound in H.
  apply assign_spec. eapply Assignment_perm; [|exact H]. apply Permutation_sym, reorder_perm.
Qed.

Theorem setwise_exact_m rk rows n :
  amb_m rows n = false -> (setwise_post (reorder rk rows) n = None <-> assign rows (seq 0 n) = true).
Proof.
  intro A. split; [apply setwise_sound_m|]. intro H. apply setwise_post_none, greedy_complete.
  - eapply unamb_perm; [apply reorder_perm|]. apply amb_m_false. exact A.
  - apply assign_spec. eapply Assignment_perm; [apply reorder_perm|]. apply assign_spec. exact H.
Qed.

Lemma Forall2_cons_iff {A B} (R : A -> B -> Prop) a l b m :
  Forall2 R (a :: l) (b :: m) <-> R a b /\ Forall2 R l m.
Proof. split; [intro H; inversion H; auto|intros [? ?]; constructor; assumption]. Qed.

Section Matrix.
  Context {M V : Type} (f : M -> V -> bool).

  (* the columns js of the matrix over l = pre ++ js, taken at their own indices *)
  Lemma forall2_matrix_gen (l : list V) : forall (ms : list M) (pre : list V) (js : list V),
    l = pre ++ js ->
    (Forall2 (fun r j => at_ j r = true) (map (fun m => map (f m) l) ms) (seq (length pre) (length js))
     <-> Forall2 (fun m x => f m x = true) ms js).
  Proof.
    induction ms as [|m ms IH]; intros pre [|x js] E; simpl;
      try solve [split; intro H; inversion H; constructor].
    rewrite !Forall2_cons_iff. specialize (IH (pre ++ [x]) js).
    rewrite app_length, Nat.add_1_r, <- app_assoc in IH. rewrite (IH E).
    (* the entry of row m at index |pre| is f m x *)
    unfold at_. subst l. rewrite map_app, <- (map_length (f m) pre). simpl map.
    rewrite nth_middle. reflexivity.
  Qed.

  Lemma assign_matrix (ms : list M) (l : list V) :
    assign (map (fun m => map (f m) l) ms) (seq 0 (length l)) = true
    <-> exists ms', Permutation ms ms' /\ Forall2 (fun m x => f m x = true) ms' l.
  Proof.
    rewrite assign_spec. unfold Assignment. split.
    - intros [rows' [P F]].
      apply Permutation_sym, Permutation_map_inv in P as [ms' [-> P]].
      exists ms'. split; [exact P|].
      apply (forall2_matrix_gen l ms' [] l eq_refl). exact F.
    - intros [ms' [P F]]. exists (map (fun m => map (f m) l) ms'). split; [apply Permutation_map; exact P|].
      apply (forall2_matrix_gen l ms' [] l eq_refl). exact F.
  Qed.
End Matrix.
