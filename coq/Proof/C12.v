(* C12 - proofs.  The thread-level lemmas (shapes of program counters, normalisation, sequential meaning) are
   reused by Proof/C13Classic.v; the invariant of every reachable configuration comes after them. *)
From TT Require Import Lib.Base Lib.EqbFacts Lib.ListFacts Model.Tfr Model.Concur Spec.C12 Corr.C12 Proof.SchedFacts.

Lemma tv_eqb_spec a b : tv_eqb a b = true <-> a = b.
Proof. destruct a, b; simpl; eqb_components ltac:(apply Nat.eqb_eq). Qed.
Lemma kind_eqb_spec a b : kind_eqb a b = true <-> a = b.
Proof. destruct a, b; simpl; eqb_components idtac. Qed.
Lemma guard_eqb_spec a b : guard_eqb a b = true <-> a = b.
Proof. destruct a, b; simpl; eqb_components idtac. Qed.
Lemma tags2_eqb_spec a b : tags2_eqb a b = true <-> a = b.
Proof. apply pair_eqb_spec; apply nats_eqb_spec. Qed.

Lemma tcall_eqb_spec a b : tcall_eqb a b = true <-> a = b.
Proof.
  destruct a, b; simpl;
    eqb_components ltac:(first [apply tv_eqb_spec | apply Nat.eqb_eq | apply tags2_eqb_spec | apply kind_eqb_spec
                               | apply guard_eqb_spec]).
Qed.

Lemma gev_eqb_spec a b : gev_eqb a b = true <-> a = b.
Proof. destruct a, b; simpl; eqb_components ltac:(first [apply tcall_eqb_spec | apply bool_eqb_spec]). Qed.
Lemma ev_eqb_spec a b : ev_eqb a b = true <-> a = b.
Proof. apply pair_eqb_spec; [apply Nat.eqb_eq | apply gev_eqb_spec]. Qed.

Lemma aobs_eqb_spec a b : aobs_eqb a b = true <-> a = b.
Proof.
  destruct a, b; unfold aobs_eqb; simpl.
  eqb_components ltac:(first [apply (list_eqb_spec _ ev_eqb_spec) | apply (list_eqb_spec _ (list_eqb_spec _ gev_eqb_spec))
                             | apply bool_eqb_spec | apply (list_eqb_spec _ bool_eqb_spec)]).
Qed.

Lemma nth_upd_same {A} (l : list A) i x y : nth_error l i = Some y -> nth_error (upd l i x) i = Some x.
Proof. revert i; induction l as [|a l IH]; intros [|i] H; simpl in *; try discriminate; auto. Qed.
Lemma nth_upd_other {A} (l : list A) i j x : i <> j -> nth_error (upd l i x) j = nth_error l j.
Proof. revert i j; induction l as [|a l IH]; intros [|i] [|j] H; simpl; auto; try congruence. Qed.
Lemma length_upd {A} (l : list A) i x : length (upd l i x) = length l.
Proof. revert i; induction l as [|a l IH]; intros [|i]; simpl; auto. Qed.

Lemma upd_pointwise {A} (Q : nat -> A -> Prop) l t x y :
  nth_error l t = Some x -> Q t y -> (forall u z, u <> t -> nth_error l u = Some z -> Q u z) ->
  forall u z, nth_error (upd l t y) u = Some z -> Q u z.
Proof.
  intros Ht Hy Ho u z Hu. destruct (Nat.eq_dec t u) as [<-|Hne].
  - rewrite (nth_upd_same _ _ _ _ Ht) in Hu. injection Hu as <-. exact Hy.
  - rewrite nth_upd_other in Hu by exact Hne. apply Ho; auto.
Qed.

Lemma forallb_nth {A} (p : A -> bool) l i x : forallb p l = true -> nth_error l i = Some x -> p x = true.
Proof. intros H Hn. rewrite forallb_forall in H. apply H. eapply nth_error_In; eauto. Qed.

Lemma forallb_false_nth {A} (p : A -> bool) l : forallb p l = false -> exists w x, nth_error l w = Some x /\ p x = false.
Proof.
  induction l as [|a l IH]; simpl; [discriminate|]. destruct (p a) eqn:E; simpl.
  - intro H. destruct (IH H) as (w & x & Hw & Hx). exists (S w), x. auto.
  - intros _. exists 0, a. auto.
Qed.

Definition lsum {A} (f : A -> nat) (l : list A) : nat := fold_right (fun x a => f x + a) 0 l.

Lemma lsum_app {A} (f : A -> nat) a b : lsum f (a ++ b) = lsum f a + lsum f b.
Proof. induction a as [|x a IH]; simpl; [reflexivity | rewrite IH; lia]. Qed.

Lemma lsum_upd {A} (f : A -> nat) l d : forall w x y, nth_error l w = Some x -> f y + d <= f x ->
  lsum f (upd l w y) + d <= lsum f l.
Proof.
  induction l as [|a l IH]; intros [|w] x y H Hd; simpl in *; try discriminate.
  - injection H as ->. lia.
  - specialize (IH w x y H Hd). lia.
Qed.

Lemma lsum_skipn {A} (f : A -> nat) l : forall j x, nth_error l j = Some x -> lsum f (skipn j l) = f x + lsum f (skipn (S j) l).
Proof. induction l as [|a l IH]; intros [|j] x H; simpl in *; try discriminate; [congruence | apply IH; exact H]. Qed.

Lemma forallb_idx_spec {A} (p : nat -> A -> bool) l : forall k,
  forallb_idx p k l = true <-> (forall t x, nth_error l t = Some x -> p (k + t) x = true).
Proof.
  induction l as [|a l IH]; intro k; simpl.
  - split; [intros _ [|t] x H; discriminate | reflexivity].
  - rewrite andb_true_iff, IH. split.
    + intros [Ha Hl] [|t] x H; simpl in H.
      * injection H as <-. rewrite Nat.add_0_r. exact Ha.
      * specialize (Hl t x H). rewrite <- Nat.add_succ_comm. exact Hl.
    + intros H. split.
      * specialize (H 0 a eq_refl). rewrite Nat.add_0_r in H. exact H.
      * intros t x Ht. specialize (H (S t) x Ht). rewrite <- Nat.add_succ_comm in H. exact H.
Qed.

(* win: inside a critical section - whatever the target does, the next operations on shared
   objects are target calls and then a release; wout: outside - finished with the call, or about
   to acquire.  (The two shapes of notes/prototypes/Tfr_sketch.v.) *)
Fixpoint win (p : prog) : bool :=
  match p with
  | PRel r => wout r
  | PCall _ h r => win h && win r
  | PLoc _ r => win r
  | _ => false
  end
with wout (p : prog) : bool :=
  match p with
  | PEnd | PRaise => true
  | PAcq r => win r
  | PLoc _ r => wout r
  | _ => false
  end.

Definition nfb (p : prog) : bool := match p with PLoc _ _ | PRaise => false | _ => true end.

(* a thread is in normal form: settled, not in the raised state, and finished only with an empty script *)
Definition tnf (th : thread) : Prop := nfb (pc th) = true /\ (pc th = PEnd -> script th = []).
Definition t_in (th : thread) : Prop := win (pc th) = true /\ nfb (pc th) = true.
Definition t_out (th : thread) : Prop := wout (pc th) = true /\ tnf th.

Lemma win_calls_then cs h r : win h = true -> win r = true -> win (calls_then cs h r) = true.
Proof. intros Hh Hr; induction cs as [|c cs IH]; simpl; [exact Hr | rewrite Hh, IH; reflexivity]. Qed.

Lemma expand_wout f c : wout (expand f c) = true.
Proof.
  destruct c as [a|n g|n|n|k n|g|]; simpl; try reflexivity.
  - apply win_calls_then; reflexivity.
  - destruct g; reflexivity.
Qed.

Lemma settle_win p : forall f, win p = true -> win (fst (settle p f)) = true.
Proof. induction p; intros f H; simpl in *; try discriminate; auto. Qed.
Lemma settle_wout p : forall f, wout p = true -> wout (fst (settle p f)) = true.
Proof. induction p; intros f H; simpl in *; try discriminate; auto. Qed.
Lemma settle_not_loc p : forall f o r, fst (settle p f) <> PLoc o r.
Proof. induction p; intros f o' r'; simpl; try discriminate; auto. Qed.

(* what load and resume return: the raised state (only when the script is abandoned there), or this *)
Definition outp (p : prog) (s : list rcall) : Prop := wout p = true /\ nfb p = true /\ (p = PEnd -> s = []).

Lemma load_out cont s : forall f,
  let '(p, s', f') := load cont s f in (cont = false /\ p = PRaise) \/ outp p s'.
Proof.
  induction s as [|c r IH]; intro f; simpl.
  - right. repeat split.
  - pose proof (settle_wout (expand f c) f (expand_wout f c)) as Hw.
    pose proof (settle_not_loc (expand f c) f) as Hl.
    destruct (settle (expand f c) f) as [p f'] eqn:E; simpl in *.
    destruct p as [| |r0|r0|c0 h0 r0|o0 r0]; try discriminate.
    + apply IH.
    + destruct cont; [apply IH | left; auto].
    + right. repeat split; try discriminate; assumption.
    + exfalso; eapply Hl; eauto.
Qed.

Lemma resume_out fbs : forall f, let '(p, s', f', fbs') := resume fbs f in outp p s'.
Proof.
  induction fbs as [|s r IH]; intro f; simpl.
  - repeat split.
  - pose proof (load_out false s f) as H. destruct (load false s f) as [[p s'] f'].
    destruct H as [[_ ->]|H]; [apply IH|]. destruct p; try exact H. destruct H as (_ & H & _). discriminate.
Qed.

Lemma norm_in th : win (pc th) = true -> t_in (norm th).
Proof.
  intro H. unfold norm, t_in.
  pose proof (settle_win (pc th) (fw th) H) as Hw. pose proof (settle_not_loc (pc th) (fw th)) as Hl.
  destruct (settle (pc th) (fw th)) as [p f]; simpl in *.
  (* inside a section the settled counter is a release or a call: norm leaves it alone *)
  destruct p; try discriminate; try (exfalso; eapply Hl; reflexivity).
  - destruct (fb th); split; auto.
  - destruct (fb th); split; auto.
Qed.

Lemma norm_out th : wout (pc th) = true -> t_out (norm th).
Proof.
  intro H. unfold norm. change (t_out ?t) with (outp (pc t) (script t)).
  pose proof (settle_wout (pc th) (fw th) H) as Hw.
  pose proof (settle_not_loc (pc th) (fw th)) as Hl.
  destruct (settle (pc th) (fw th)) as [p f]; simpl in *.
  assert (HT : let '(p', s', f') := load true (script th) f in outp p' s').
  { pose proof (load_out true (script th) f) as HL. destruct (load true (script th) f) as [[p' s'] f'].
    destruct HL as [[HL _]|HL]; [discriminate | exact HL]. }
  destruct p as [| |r0|r0|c0 h0 r0|o0 r0]; simpl in Hw; try discriminate.
  - destruct (fb th) as [fbs|]; [|destruct (load true (script th) f) as [[p' s'] f']; exact HT].
    pose proof (load_out false (script th) f) as HL. destruct (load false (script th) f) as [[p' s'] f'].
    destruct HL as [[_ ->]|HL].
    + pose proof (resume_out fbs f') as HR. destruct (resume fbs f') as [[[p'' s''] f''] fbs']. exact HR.
    + destruct p'; try exact HL. destruct HL as (_ & HL & _). discriminate.
  - destruct (fb th) as [fbs|]; [|destruct (load true (script th) f) as [[p' s'] f']; exact HT].
    pose proof (resume_out fbs f) as HR. destruct (resume fbs f) as [[[p'' s''] f''] fbs']. exact HR.
  - destruct (fb th); simpl; repeat split; auto; discriminate.
  - exfalso; eapply Hl; eauto.
Qed.

Lemma tstep_shape th e th' : tstep th = Some (e, th') ->
  match e with
  | EAcq => t_out th -> t_in th'
  | ERel => t_in th -> t_out th'
  | ECall _ _ => t_in th -> t_in th'
  end.
Proof.
  unfold tstep. destruct (pc th) eqn:E; try discriminate; intro H; injection H as <- <-.
  all: intros [Hw _]; rewrite E in Hw; simpl in Hw.
  - apply norm_in. exact Hw.
  - apply norm_out. exact Hw.
  - apply norm_in. simpl. apply andb_true_iff in Hw as [H1 H2]. destruct (faulty th); assumption.
Qed.

Lemma t_in_can_step th : t_in th -> exists e th', tstep th = Some (e, th') /\ e <> EAcq.
Proof.
  intros [Hw Hn]. unfold tstep. destruct (pc th); simpl in Hw, Hn; try discriminate.
  - eexists; eexists; split; [reflexivity | discriminate].
  - eexists; eexists; split; [reflexivity | discriminate].
Qed.

Lemma t_out_unfinished_acq th : t_out th -> finished th = false -> exists th', tstep th = Some (EAcq, th').
Proof.
  intros [Hw [Hn _]] Hf. unfold tstep, finished in *. destruct (pc th); simpl in *; try discriminate; eauto.
Qed.

Lemma init_thread_out s fl b : t_out (init_thread s fl b).
Proof. apply norm_out. reflexivity. Qed.

Lemma t_in_block th : t_in th -> in_block th = true.
Proof. intros [Hw Hn]. unfold in_block. destruct (pc th); simpl in *; try discriminate; reflexivity. Qed.
Lemma t_out_block th : t_out th -> in_block th = false.
Proof. intros [Hw _]. unfold in_block. destruct (pc th); simpl in *; try discriminate; reflexivity. Qed.
Lemma t_in_unfinished th : t_in th -> finished th = false.
Proof. intros [Hw _]. unfold finished. destruct (pc th); simpl in *; try discriminate; reflexivity. Qed.
Lemma finished_block th : finished th = true -> in_block th = false.
Proof. unfold finished, in_block. destruct (pc th); try discriminate; reflexivity. Qed.

Definition holds (s : option tid) (t : tid) : bool := match s with Some u => u =? t | None => false end.
(* the holder of the semaphore is inside a critical section, everybody else is outside *)
Definition shape (b : bool) (th : thread) : Prop := if b then t_in th else t_out th.

Lemma enabled_cases s t e s' : enabled s t e = Some s' ->
  (e = EAcq /\ s = None /\ s' = Some t) \/ (e = ERel /\ s = Some t /\ s' = None)
  \/ ((exists c b, e = ECall c b) /\ s = Some t /\ s' = Some t).
Proof.
  destruct e, s as [u|]; simpl; try discriminate.
  - intro H; injection H as <-. left; auto.
  - destruct (u =? t) eqn:E; [|discriminate]. apply Nat.eqb_eq in E; subst u. intro H; injection H as <-. right; left; auto.
  - destruct (u =? t) eqn:E; [|discriminate]. apply Nat.eqb_eq in E; subst u. intro H; injection H as <-. right; right; eauto.
Qed.

Lemma shape_step s t e s' th th' :
  enabled s t e = Some s' -> tstep th = Some (e, th') -> shape (holds s t) th ->
  shape (holds s' t) th' /\ (forall u, u <> t -> holds s' u = holds s u) /\ (forall u, s' = Some u -> u = t).
Proof.
  intros He Hs Hsh. apply tstep_shape in Hs.
  assert (Ho : forall u, u <> t -> (t =? u) = false) by (intros u Hu; apply Nat.eqb_neq; auto).
  apply enabled_cases in He as [(-> & -> & ->)|[(-> & -> & ->)|([c [b ->]] & -> & ->)]];
    unfold holds in *; rewrite ?Nat.eqb_refl in *; (split; [exact (Hs Hsh)|]).
  - split; [exact Ho | congruence].
  - split; [intros u Hu; rewrite (Ho u Hu); reflexivity | discriminate].
  - split; [reflexivity | congruence].
Qed.

Definition Inv (c : config) : Prop :=
  (forall t th, nth_error (ths c) t = Some th -> shape (holds (sem c) t) th)
  /\ (forall u, sem c = Some u -> u < length (ths c)).

Lemma step_unfold c t c' : step c t = Some c' ->
  exists th e th' s', nth_error (ths c) t = Some th /\ tstep th = Some (e, th') /\ enabled (sem c) t e = Some s'
                      /\ c' = {| sem := s'; glog := glog c ++ [(t, e)]; ths := upd (ths c) t th' |}.
Proof.
  unfold step. destruct (nth_error (ths c) t) as [th|] eqn:Et; [|discriminate].
  destruct (tstep th) as [[e th']|] eqn:Es; [|discriminate].
  destruct (enabled (sem c) t e) as [s'|] eqn:Ee; [|discriminate].
  intros H; injection H as <-. exists th, e, th', s'. repeat split; assumption.
Qed.

Lemma step_inv c t c' : Inv c -> step c t = Some c' -> Inv c'.
Proof.
  intros [HI HB] Hs. apply step_unfold in Hs as (th & e & th' & s' & Et & Es & Ee & ->).
  destruct (shape_step _ _ _ _ _ _ Ee Es (HI t th Et)) as (Ht & Ho & Hh).
  split; simpl.
  - apply (upd_pointwise (fun u x => shape (holds s' u) x) _ _ _ _ Et Ht).
    intros u z Hne Hu. rewrite (Ho u Hne). exact (HI u z Hu).
  - intros u Hu. rewrite length_upd, (Hh u Hu). apply nth_error_Some. congruence.
Qed.

Lemma inv_holder c u : Inv c -> sem c = Some u -> exists th, nth_error (ths c) u = Some th /\ t_in th.
Proof.
  intros [HI HB] Hs. destruct (nth_error_lt _ _ (HB u Hs)) as [th Hn]. exists th. split; [exact Hn|].
  specialize (HI u th Hn). rewrite Hs in HI. simpl in HI. rewrite Nat.eqb_refl in HI. exact HI.
Qed.

Lemma inv_free c t th : Inv c -> sem c = None -> nth_error (ths c) t = Some th -> t_out th.
Proof. intros [HI _] Hs Hn. specialize (HI t th Hn). rewrite Hs in HI. exact HI. Qed.

Lemma holds_spec s t : holds s t = true <-> s = Some t.
Proof. destruct s as [u|]; simpl; [rewrite Nat.eqb_eq; split; congruence | split; discriminate]. Qed.
Lemma shape_block b th : shape b th -> in_block th = b.
Proof. destruct b; [apply t_in_block | apply t_out_block]. Qed.

Lemma inv_mutex c : Inv c ->
  (forall t th, nth_error (ths c) t = Some th -> (sem c = Some t <-> in_block th = true))
  /\ (forall t u tht thu, nth_error (ths c) t = Some tht -> nth_error (ths c) u = Some thu ->
        in_block tht = true -> in_block thu = true -> t = u).
Proof.
  intros [HI _].
  assert (A : forall t th, nth_error (ths c) t = Some th -> (sem c = Some t <-> in_block th = true)).
  { intros t th Ht. rewrite (shape_block _ _ (HI t th Ht)). symmetry. apply holds_spec. }
  split; [exact A|].
  intros t u tht thu Ht Hu Bt Bu. apply (A t tht Ht) in Bt. apply (A u thu Hu) in Bu. congruence.
Qed.

Lemma inv_release c : Inv c -> (forall t th, nth_error (ths c) t = Some th -> in_block th = false) -> sem c = None.
Proof.
  intros HI H. destruct (sem c) as [u|] eqn:Es; [|reflexivity]. exfalso.
  destruct (inv_holder c u HI Es) as (th & Hn & Hin). apply t_in_block in Hin. rewrite (H u th Hn) in Hin. discriminate.
Qed.

Lemma finished_sem_free c : Inv c -> all_finished c = true -> sem c = None.
Proof.
  intros HI Hf. apply (inv_release c HI). intros t th Ht. apply finished_block. exact (forallb_nth _ _ _ _ Hf Ht).
Qed.

(* the holder can move; when the semaphore is free any unfinished thread can acquire it *)
Lemma inv_no_deadlock c : Inv c ->
  (exists t th, nth_error (ths c) t = Some th /\ finished th = false) ->
  exists t, step c t <> None.
Proof.
  intros HI [t [th [Ht Hf]]].
  destruct (sem c) as [u|] eqn:Es.
  - destruct (inv_holder c u HI Es) as (thu & Eu & Hin).
    destruct (t_in_can_step _ Hin) as (e & th' & Hst & Hne).
    exists u. unfold step. rewrite Eu, Hst, Es. destruct e; simpl; try rewrite Nat.eqb_refl; congruence.
  - destruct (t_out_unfinished_acq _ (inv_free c t th HI Es Ht) Hf) as [th' Hst].
    exists t. unfold step. rewrite Ht, Hst, Es. simpl. discriminate.
Qed.

(* [enabled] folded over the log from holder h, every thread number below n.  Unlike the statement's sectb it
   returns the holder at the end, so an unfinished log can be compared with the semaphore (MonInv). *)
Fixpoint mon (n : nat) (h : option tid) (log : list (tid * gev)) : option (option tid) :=
  match log with
  | [] => Some h
  | (t, e) :: r => match enabled h t e with
                   | Some h' => if t <? n then mon n h' r else None
                   | None => None
                   end
  end.

Lemma mon_app n l1 : forall h l2,
  mon n h (l1 ++ l2) = match mon n h l1 with Some h' => mon n h' l2 | None => None end.
Proof.
  induction l1 as [|[t e] r IH]; intros h l2; simpl; [reflexivity|].
  destruct (enabled h t e); [|reflexivity]. destruct (t <? n); [apply IH | reflexivity].
Qed.

Lemma mon_sectb n log : forall h, mon n h log = Some None -> sectb n h log = true.
Proof.
  induction log as [|[t e] r IH]; intros h; simpl.
  - intros H; injection H as ->; reflexivity.
  - destruct h as [u|]; destruct e; simpl; try discriminate.
    + destruct (u =? t) eqn:E; [|discriminate]. destruct (t <? n); [|discriminate].
      intro H. simpl. apply IH. exact H.
    + destruct (u =? t) eqn:E; [|discriminate]. destruct (t <? n); [|discriminate].
      intro H. simpl. apply IH. exact H.
    + destruct (t <? n); [|discriminate].
      intro H. simpl. apply IH. exact H.
Qed.

Lemma sectb_mon n log : forall h, (forall u, h = Some u -> u < n) -> sectb n h log = true -> mon n h log = Some None.
Proof.
  induction log as [|[t e] r IH]; intros h Hh; simpl.
  - destruct h; [discriminate | reflexivity].
  - destruct e, h as [u|]; try discriminate; intro H; apply andb_true_iff in H as [H1 H2]; simpl.
    + rewrite H1. apply IH; [|exact H2].
      intros v Hv. injection Hv as <-. apply Nat.ltb_lt. exact H1.
    + rewrite H1. apply Nat.eqb_eq in H1. subst t.
      rewrite (proj2 (Nat.ltb_lt u n) (Hh u eq_refl)).
      apply IH; [discriminate | exact H2].
    + rewrite H1. apply Nat.eqb_eq in H1. subst t.
      rewrite (proj2 (Nat.ltb_lt u n) (Hh u eq_refl)).
      apply IH; [exact Hh | exact H2].
Qed.

Definition MonInv (c : config) : Prop := mon (length (ths c)) None (glog c) = Some (sem c).

Lemma step_mon c t c' : MonInv c -> step c t = Some c' -> MonInv c'.
Proof.
  unfold MonInv. intros HM Hs. apply step_unfold in Hs as (th & e & th' & s' & Et & Es & Ee & ->). simpl.
  rewrite length_upd, mon_app, HM. simpl. rewrite Ee.
  assert (Hlt : t < length (ths c)) by (apply nth_error_Some; congruence).
  apply Nat.ltb_lt in Hlt. rewrite Hlt. reflexivity.
Qed.

Fixpoint ptrace (fl : list nat) (p : prog) (f : fwd) (k : nat) : list gev * fwd * nat :=
  match p with
  | PEnd | PRaise => ([], f, k)
  | PAcq r => let '(l, f', k') := ptrace fl r f k in (EAcq :: l, f', k')
  | PRel r => let '(l, f', k') := ptrace fl r f k in (ERel :: l, f', k')
  | PCall c h r =>
      if memb k fl
      then let '(l, f', k') := ptrace fl h f (S k) in (ECall c true :: l, f', k')
      else let '(l, f', k') := ptrace fl r f (S k) in (ECall c false :: l, f', k')
  | PLoc o r => ptrace fl r (apply_lop o f) k
  end.

Fixpoint strace (fl : list nat) (s : list rcall) (f : fwd) (k : nat) : list gev :=
  match s with
  | [] => []
  | c :: r => let '(l, f', k') := ptrace fl (expand f c) f k in l ++ strace fl r f' k'
  end.

(* The statements speak of ptrace / strace (tuples).  The proofs about what a thread has still to do use [ptr]:
   the events of p, then [rest raised f k]; a step of the thread is then one unfolding.  [ptr_ptrace] relates the
   two when the continuation ignores raised (otherwise ptr_pend, which stands in Proof/C13Classic.v with pend). *)
Fixpoint ptr (fl : list nat) (p : prog) (rest : bool -> fwd -> nat -> list gev) (f : fwd) (k : nat) : list gev :=
  match p with
  | PEnd => rest false f k
  | PRaise => rest true f k
  | PAcq r => EAcq :: ptr fl r rest f k
  | PRel r => ERel :: ptr fl r rest f k
  | PCall c h r => ECall c (memb k fl) :: (if memb k fl then ptr fl h rest f (S k) else ptr fl r rest f (S k))
  | PLoc o r => ptr fl r rest (apply_lop o f) k
  end.

Lemma ptr_settle fl rest p : forall f k, ptr fl p rest f k = ptr fl (fst (settle p f)) rest (snd (settle p f)) k.
Proof. induction p; intros f k; simpl; try reflexivity. apply IHp. Qed.

Lemma ptr_ptrace fl g p : forall f k,
  ptr fl p (fun _ => g) f k = (let '(l, f', k') := ptrace fl p f k in l ++ g f' k').
Proof.
  induction p; intros f k; simpl; try reflexivity.
  - rewrite IHp. destruct (ptrace fl p f k) as [[l f'] k']. reflexivity.
  - rewrite IHp. destruct (ptrace fl p f k) as [[l f'] k']. reflexivity.
  - destruct (memb k fl).
    + rewrite IHp1. destruct (ptrace fl p1 f (S k)) as [[l f'] k']. reflexivity.
    + rewrite IHp2. destruct (ptrace fl p2 f (S k)) as [[l f'] k']. reflexivity.
  - apply IHp.
Qed.

(* a run of one thread alone: the log it leaves on the shared objects, and where it has got to *)
Inductive tpath : thread -> list gev -> thread -> Prop :=
| tp_nil th : tpath th [] th
| tp_snoc a l b e c : tpath a l b -> tstep b = Some (e, c) -> tpath a (l ++ [e]) c.

(* What a thread has still to do on the shared objects: its pending forwarder call, then [R] of its script and
   fallbacks.  All that is needed of R is that normalisation does not change the whole. *)
Section Residual.
  Variable R : list nat -> list rcall -> option (list (list rcall)) -> bool -> fwd -> nat -> list gev.
  Variable okb : option (list (list rcall)) -> Prop.
  Definition residual (th : thread) : list gev :=
    ptr (flt th) (pc th) (R (flt th) (script th) (fb th)) (fw th) (ncall th).
  Hypothesis residual_norm : forall th, okb (fb th) -> residual (norm th) = residual th /\ okb (fb (norm th)).

  Lemma residual_tstep th e th' : okb (fb th) -> tstep th = Some (e, th') -> residual th = e :: residual th' /\ okb (fb th').
  Proof.
    intros Hb. unfold tstep. destruct (pc th) eqn:E; try discriminate; intro H; injection H as <- <-.
    (* the thread after the step is norm of the thread with its counter moved on: normalisation is transparent
       (residual_norm), and moving the counter on is one unfolding of ptr *)
    - destruct (residual_norm (set_pc th p (ncall th)) Hb) as [-> Hb']. split; [|exact Hb'].
      unfold residual. simpl. rewrite E. reflexivity.
    - destruct (residual_norm (set_pc th p (ncall th)) Hb) as [-> Hb']. split; [|exact Hb'].
      unfold residual. simpl. rewrite E. reflexivity.
    - destruct (residual_norm (set_pc th (if faulty th then p1 else p2) (S (ncall th))) Hb) as [-> Hb'].
      split; [|exact Hb']. unfold residual. simpl. rewrite E. simpl.
      unfold faulty. destruct (memb (ncall th) (flt th)); reflexivity.
  Qed.

  Lemma residual_tpath a l b : tpath a l b -> okb (fb a) -> residual a = l ++ residual b /\ okb (fb b).
  Proof.
    induction 1 as [th|a l b e c Hp IH Hs]; intro Hb; [split; [reflexivity | exact Hb]|].
    destruct (IH Hb) as [E Hbb]. destruct (residual_tstep _ _ _ Hbb Hs) as [E2 Hbc].
    split; [|exact Hbc]. rewrite E, E2, <- app_assoc. reflexivity.
  Qed.
End Residual.

(* its own code catches what a call raises: the rest of the script follows either way *)
Definition ttrace : thread -> list gev := residual (fun fl s _ _ => strace fl s).

Lemma load_ttrace fl s : forall f k,
  let '(p', s', f') := load true s f in strace fl s f k = ptr fl p' (fun _ => strace fl s') f' k.
Proof.
  induction s as [|c r IH]; intros f k; simpl; [reflexivity|].
  rewrite <- (ptr_ptrace fl (strace fl r)), ptr_settle. destruct (settle (expand f c) f) as [p f1]; simpl.
  destruct p; try reflexivity; simpl; apply IH.
Qed.

Lemma norm_ttrace th : fb th = None -> ttrace (norm th) = ttrace th /\ fb (norm th) = None.
Proof.
  intro Hb. unfold ttrace, residual at 2. rewrite ptr_settle. unfold norm. rewrite Hb.
  destruct (settle (pc th) (fw th)) as [p f]; simpl.
  (* whether the forwarder call returned or raised, the thread goes on with load true of its script *)
  pose proof (load_ttrace (flt th) (script th) f (ncall th)) as H.
  destruct p; try (split; reflexivity).
  - destruct (load true (script th) f) as [[p' s'] f']. unfold residual. simpl. rewrite H. split; reflexivity.
  - destruct (load true (script th) f) as [[p' s'] f']. unfold residual. simpl. rewrite H. split; reflexivity.
Qed.

Lemma tstep_ttrace th e th' : fb th = None -> tstep th = Some (e, th') -> ttrace th = e :: ttrace th' /\ fb th' = None.
Proof. exact (residual_tstep _ (fun b => b = None) norm_ttrace th e th'). Qed.

Lemma finished_ttrace th : tnf th -> finished th = true -> ttrace th = [].
Proof.
  intros [_ Hs] Hf. unfold finished in Hf. unfold ttrace, residual. destruct (pc th) eqn:E; try discriminate.
  simpl. rewrite (Hs eq_refl). reflexivity.
Qed.

Lemma init_ttrace s fl : ttrace (init_thread s fl None) = strace fl s fwd0 0 /\ fb (init_thread s fl None) = None.
Proof. apply (norm_ttrace {| pc := PEnd; script := s; fw := fwd0; ncall := 0; flt := fl; fb := None |} eq_refl). Qed.

Definition same3 (f f' : fwd) : Prop := f_now f' = f_now f /\ f_global f' = f_global f /\ f_in f' = f_in f.

Lemma ptrace_calls_cut fl rest tail f :
  (forall k0, exists f', ptrace fl rest f k0 = (fst (tail k0) ++ [ERel], f', snd (tail k0)) /\ same3 f f') ->
  forall cs k, exists f',
    ptrace fl (calls_then cs (PRel PRaise) rest) f k = (fst (cut fl k cs tail) ++ [ERel], f', snd (cut fl k cs tail))
    /\ same3 f f'.
Proof.
  intros Hrest. induction cs as [|c cs IH]; intro k; simpl.
  - apply Hrest.
  - destruct (memb k fl).
    + exists f. simpl. split; [reflexivity | repeat split].
    + destruct (IH (S k)) as (f' & E & Hs). exists f'. rewrite E.
      destruct (cut fl (S k) cs tail) as [l k']. simpl. split; [reflexivity | exact Hs].
Qed.

Definition after_replay (kd : kind) (n : nat) : prog :=
  PLoc LClearTestTags
    (PCall (TOutcome kd n) (PCall (TStopTest n) (PRel PRaise) (PRel PRaise))
       (PCall (TStopTest n) (PRel PRaise) (PRel (PLoc LClearStart PEnd)))).

Lemma expand_outcome f kd n :
  expand f (ROutcome kd n) = PAcq (calls_then (replay f n) (PRel PRaise) (after_replay kd n)).
Proof. reflexivity. Qed.

Lemma ptrace_outcome fl f kd n k : exists f',
  ptrace fl (expand f (ROutcome kd n)) f k
  = (section (fst (cut fl k (replay f n) (tail2 fl (TOutcome kd n) (TStopTest n)))), f',
     snd (cut fl k (replay f n) (tail2 fl (TOutcome kd n) (TStopTest n))))
  /\ same3 f f'.
Proof.
  rewrite expand_outcome.
  assert (Hrest : forall k0, exists f',
    ptrace fl (after_replay kd n) f k0
    = (fst (tail2 fl (TOutcome kd n) (TStopTest n) k0) ++ [ERel], f', snd (tail2 fl (TOutcome kd n) (TStopTest n) k0))
    /\ same3 f f').
  { intro k0. unfold after_replay. simpl. destruct (memb k0 fl); destruct (memb (S k0) fl); simpl;
      eexists; (split; [reflexivity | repeat split]). }
  destruct (ptrace_calls_cut fl _ _ f Hrest (replay f n) k) as (f' & E & Hs).
  exists f'. split; [|exact Hs].
  change (ptrace fl (PAcq ?r) f k) with (let '(l, f', k') := ptrace fl r f k in (EAcq :: l, f', k')).
  rewrite E. reflexivity.
Qed.

Lemma ptrace_guarded fl c f k : ptrace fl (guarded c) f k = (section [ECall c (memb k fl)], f, S k).
Proof. unfold guarded; simpl. destruct (memb k fl); reflexivity. Qed.

Lemma strace_cons fl c r f k :
  strace fl (c :: r) f k = (let '(l, f', k') := ptrace fl (expand f c) f k in l ++ strace fl r f' k').
Proof. reflexivity. Qed.

Lemma strace_guard fl g r f k :
  strace fl (RGuard g :: r) f k
  = section [ECall (TGuard g) (memb k fl)]
    ++ strace fl r (match g with GStartRun => apply_lop LStartRun f | _ => f end) (S k).
Proof.
  rewrite strace_cons. destruct g; simpl expand;
    try change (ptrace fl (PLoc LStartRun ?p) f k) with (ptrace fl p (apply_lop LStartRun f) k);
    rewrite ptrace_guarded; reflexivity.
Qed.

(* the forwarder's state against the statement's state, by phase; in Post only that a test is open *)
Definition Rel (p : phase) (f : fwd) (st : sst) : Prop :=
  f_now f = s_now st /\ f_global f = s_run st /\
  match p with
  | Out => f_in f = false /\ f_test f = no_tags /\ s_open st = None
  | Pre _ => f_in f = true /\ s_open st = Some (f_start f, f_test f)
  | Post _ => f_in f = true /\ exists x, s_open st = Some x
  end.

Lemma expected_outcome fl kd n r st k t0 tg : s_open st = Some (t0, tg) ->
  expected fl (ROutcome kd n :: r) st k =
  (let '(body, k') := cut fl k ([TTime t0; TStartTest n; TTime (s_time st)] ++ tag_call (s_run st) ++ tag_call tg)
                          (tail2 fl (TOutcome kd n) (TStopTest n)) in
   section body ++ expected fl r st k').
Proof. intro H. simpl. rewrite H. reflexivity. Qed.

Lemma strace_expected fl s : forall p f st k,
  wf_script p s = true -> Rel p f st -> strace fl s f k = expected fl s st k.
Proof.
  induction s as [|c r IH]; intros p f st k Hwf HR; [reflexivity|].
  destruct HR as (Hn & Hg & Hp).
  destruct c as [a|tn tg|n|n|kd n|g|].
  - simpl. apply (IH p); [exact Hwf|]. repeat split; simpl; auto.
  - simpl in Hwf. simpl strace. simpl ptrace.
    destruct p as [|m|m]; simpl in Hp.
    + destruct Hp as (Hi & Ht & Ho). simpl expected. rewrite Ho.
      apply (IH Out); [exact Hwf|]. unfold apply_lop; rewrite Hi. repeat split; simpl; auto. rewrite Hg; reflexivity.
    + destruct Hp as (Hi & Ho). simpl expected. rewrite Ho.
      apply (IH (Pre m)); [exact Hwf|]. unfold apply_lop; rewrite Hi. repeat split; simpl; auto.
    + destruct Hp as (Hi & [[t0 x] Ho]). simpl expected. rewrite Ho.
      apply (IH (Post m)); [exact Hwf|]. unfold apply_lop; rewrite Hi. repeat split; simpl; eauto.
  - simpl in Hwf. destruct p; try discriminate. destruct Hp as (Hi & Ht & Ho).
    simpl. apply (IH (Pre n)); [exact Hwf|]. repeat split; simpl; auto.
    rewrite Ht. unfold now_tv, s_time. rewrite Hn. reflexivity.
  - simpl in Hwf. destruct p as [|m|m]; try discriminate.
    + apply andb_true_iff in Hwf as [_ Hwf]. simpl. apply (IH Out); [exact Hwf|]. repeat split; simpl; auto.
    + apply andb_true_iff in Hwf as [_ Hwf]. simpl. apply (IH Out); [exact Hwf|]. repeat split; simpl; auto.
  - simpl in Hwf. destruct p as [|m|m]; try discriminate. apply andb_true_iff in Hwf as [_ Hwf].
    destruct Hp as (Hi & Ho).
    destruct (ptrace_outcome fl f kd n k) as (f' & E & (S1 & S2 & S3)).
    rewrite strace_cons, E, (expected_outcome fl kd n r st k _ _ Ho).
    assert (Hrep : replay f n = [TTime (f_start f); TStartTest n; TTime (s_time st)] ++ tag_call (s_run st) ++ tag_call (f_test f)).
    { unfold replay, tag_call, now_tv, s_time. rewrite Hn, Hg. reflexivity. }
    rewrite <- Hrep.
    destruct (cut fl k (replay f n) (tail2 fl (TOutcome kd n) (TStopTest n))) as [body k'] eqn:Ec. simpl fst; simpl snd.
    f_equal. apply (IH (Post n)); [exact Hwf|].
    repeat split; try congruence. eauto.
  - (* guarded calls: startTestRun forgets the time and the run-level tags, the others change nothing *)
    rewrite strace_guard. cbn [expected]. f_equal.
    destruct g; simpl in Hwf.
    + destruct p; try discriminate. apply (IH Out _ _ _ Hwf). repeat split; simpl; try assumption; apply Hp.
    + destruct p; try discriminate. apply (IH Out _ _ _ Hwf). repeat split; simpl; try assumption; apply Hp.
    + apply (IH p _ _ _ Hwf). repeat split; assumption.
    + apply (IH p _ _ _ Hwf). repeat split; assumption.
    + apply (IH p _ _ _ Hwf). repeat split; assumption.
  - discriminate.
Qed.

Lemma rel0 : Rel Out fwd0 sst0.
Proof. repeat split. Qed.

Lemma cut_shape fl oc st cs : forall k,
  (exists ro rs, fst (cut fl k cs (tail2 fl oc st)) = map okc cs ++ [ECall oc ro; ECall st rs])
  \/ (exists j c, nth_error cs j = Some c /\ fst (cut fl k cs (tail2 fl oc st)) = map okc (firstn j cs) ++ [ECall c true]).
Proof.
  induction cs as [|c cs IH]; intro k; simpl.
  - left. eauto.
  - destruct (memb k fl).
    + right. exists 0, c. split; reflexivity.
    + destruct (IH (S k)) as [(ro & rs & E)|(j & c' & Hj & E)];
        destruct (cut fl (S k) cs (tail2 fl oc st)) as [l k']; simpl in *.
      * left. exists ro, rs. rewrite E. reflexivity.
      * right. exists (S j), c'. split; [exact Hj|]. rewrite E. reflexivity.
Qed.

Lemma replay_prefix f n : exists gs, replay f n = prefix_calls (f_start f) n (now_tv f) gs /\ length gs <= 2.
Proof.
  unfold replay, prefix_calls.
  destruct (any_tags (f_global f)), (any_tags (f_test f)).
  - exists [f_global f; f_test f]. split; [reflexivity | simpl; lia].
  - exists [f_global f]. split; [reflexivity | simpl; lia].
  - exists [f_test f]. split; [reflexivity | simpl; lia].
  - exists []. split; [reflexivity | simpl; lia].
Qed.

Lemma strace_sections fl s : forall f k,
  exists bodies, strace fl s f k = flat_map section bodies /\ Forall block_shape bodies.
Proof.
  induction s as [|c r IH]; intros f k; [exists []; split; [reflexivity | constructor]|].
  assert (Hnil : forall f', (exists bodies, strace fl r f' k = flat_map section bodies /\ Forall block_shape bodies))
    by (intro f'; apply IH).
  destruct c as [a|tn tg|n|n|kd n|g|]; try (apply Hnil).
  - rewrite strace_cons. destruct (ptrace_outcome fl f kd n k) as (f' & -> & _).
    destruct (IH f' (snd (cut fl k (replay f n) (tail2 fl (TOutcome kd n) (TStopTest n))))) as (bodies & -> & Hb).
    eexists (_ :: bodies). split; [reflexivity|]. constructor; [|exact Hb].
    destruct (replay_prefix f n) as (gs & -> & Hl).
    destruct (cut_shape fl (TOutcome kd n) (TStopTest n) (prefix_calls (f_start f) n (now_tv f) gs) k)
      as [(ro & rs & ->)|(j & c' & Hj & ->)]; [apply bs_full | apply bs_cut]; assumption.
  - rewrite strace_guard. destruct (IH (match g with GStartRun => apply_lop LStartRun f | _ => f end) (S k)) as (bodies & -> & Hb).
    exists ([ECall (TGuard g) (memb k fl)] :: bodies). split; [reflexivity|]. constructor; [constructor | exact Hb].
Qed.

Lemma settle_psize p : forall f, psize (fst (settle p f)) = psize p.
Proof. induction p; intro f; simpl; auto. Qed.

Lemma psize_calls_then cs h r : psize (calls_then cs h r) <= length cs + Nat.max (psize h) (psize r).
Proof. induction cs as [|c cs IH]; simpl; lia. Qed.

Lemma expand_bound f c : psize (expand f c) <= call_bound.
Proof.
  unfold call_bound. destruct c as [a|n g|n|n|k n|g|]; try (simpl; lia).
  - rewrite expand_outcome.
    pose proof (psize_calls_then (replay f n) (PRel PRaise) (after_replay k n)) as H.
    assert (L : length (replay f n) <= 5) by (unfold replay; destruct (any_tags (f_global f)), (any_tags (f_test f)); simpl; lia).
    change (psize (PRel PRaise)) with 1 in H. change (psize (after_replay k n)) with 3 in H.
    change (psize (PAcq ?r)) with (S (psize r)). simpl Nat.max in H. lia.
  - destruct g; simpl; lia.
Qed.

Lemma load_cons cont c r f :
  load cont (c :: r) f = match settle (expand f c) f with
                         | (PEnd, f') => load cont r f'
                         | (PRaise, f') => if cont then load cont r f' else (PRaise, r, f')
                         | (p, f') => (p, r, f')
                         end.
Proof. reflexivity. Qed.

Lemma load_measure cont s : forall f,
  let '(p, s', f') := load cont s f in psize p + call_bound * length s' <= call_bound * length s.
Proof.
  induction s as [|c r IH]; intros f.
  - simpl. lia.
  - rewrite load_cons.
    pose proof (settle_psize (expand f c) f) as Hs. pose proof (expand_bound f c) as Hb.
    destruct (settle (expand f c) f) as [p f']. simpl fst in Hs.
    change (length (c :: r)) with (S (length r)).
    destruct p; try lia.
    + specialize (IH f'). destruct (load cont r f') as [[p' s'] f'']. lia.
    + destruct cont; [|lia]. specialize (IH f'). destruct (load true r f') as [[p' s'] f'']. lia.
Qed.

Lemma resume_cons s r f :
  resume (s :: r) f = match load false s f with
                      | (PRaise, _, f') => resume r f'
                      | (p, s', f') => (p, s', f', r)
                      end.
Proof. reflexivity. Qed.

Lemma resume_measure fbs : forall f,
  let '(p, s', f', fbs') := resume fbs f in
  psize p + call_bound * length s' + call_bound * length (concat fbs') <= call_bound * length (concat fbs).
Proof.
  induction fbs as [|s r IH]; intros f.
  - simpl. lia.
  - rewrite resume_cons. pose proof (load_measure false s f) as HL.
    change (concat (s :: r)) with (s ++ concat r). rewrite app_length.
    destruct (load false s f) as [[p s'] f'].
    destruct p; try lia.
    specialize (IH f'). destruct (resume r f') as [[[p'' s''] f''] fbs']. lia.
Qed.

(* by monotonicity of + rather than lia, which is slow on this context *)
Lemma norm_measure th : tmeasure (norm th) <= tmeasure th.
Proof.
  unfold norm, tmeasure. pose proof (settle_psize (pc th) (fw th)) as Hs.
  destruct (settle (pc th) (fw th)) as [p f]; simpl in Hs. rewrite <- Hs. clear Hs.
  assert (HT : let '(p', s', f') := load true (script th) f in
               psize p' + call_bound * length s' + 0 <= call_bound * length (script th) + 0).
  { pose proof (load_measure true (script th) f) as HL. destruct (load true (script th) f) as [[p' s'] f'].
    apply Nat.add_le_mono_r. exact HL. }
  assert (HR : forall fbs f0, let '(p', s', f', fbs') := resume fbs f0 in
               psize p' + call_bound * length s' + call_bound * length (concat fbs')
               <= call_bound * length (script th) + call_bound * length (concat fbs)).
  { intros fbs f0. pose proof (resume_measure fbs f0) as HR. destruct (resume fbs f0) as [[[p' s'] f'] fbs'].
    eapply Nat.le_trans; [exact HR | apply Nat.le_add_l]. }
  destruct p; try (destruct (fb th); apply Nat.le_refl); destruct (fb th) as [fbs|]; cbn [psize Nat.add].
  - pose proof (load_measure false (script th) f) as HL.
    destruct (load false (script th) f) as [[p' s'] f'].
    destruct p'; try (apply Nat.add_le_mono_r; exact HL).
    specialize (HR fbs f'). destruct (resume fbs f') as [[[p'' s''] f''] fbs']. exact HR.
  - destruct (load true (script th) f) as [[p' s'] f']. exact HT.
  - specialize (HR fbs f). destruct (resume fbs f) as [[[p'' s''] f''] fbs']. exact HR.
  - destruct (load true (script th) f) as [[p' s'] f']. exact HT.
Qed.

Lemma set_pc_measure th p k : psize p < psize (pc th) -> tmeasure (set_pc th p k) < tmeasure th.
Proof. intro H. unfold tmeasure. simpl. lia. Qed.

Lemma tstep_measure th e th' : tstep th = Some (e, th') -> tmeasure th' < tmeasure th.
Proof.
  unfold tstep. destruct (pc th) eqn:E; try discriminate; intro H; injection H as <- <-.
  all: eapply Nat.le_lt_trans; [apply norm_measure | apply set_pc_measure; rewrite E; simpl].
  - apply Nat.lt_succ_diag_r.
  - apply Nat.lt_succ_diag_r.
  - destruct (faulty th); lia.
Qed.

Lemma step_measure c t c' : step c t = Some c' -> cmeasure c' < cmeasure c.
Proof.
  intro Hs. apply step_unfold in Hs as (th & e & th' & s' & Et & Es & Ee & ->). apply tstep_measure in Es.
  pose proof (lsum_upd tmeasure (ths c) 1 t th th' Et) as H. unfold cmeasure, lsum in *. simpl. lia.
Qed.

Lemma proj_snoc t log u e : proj t (log ++ [(u, e)]) = proj t log ++ (if u =? t then [e] else []).
Proof.
  unfold proj. rewrite filter_app, map_app. simpl. destruct (u =? t); reflexivity.
Qed.

(* each thread's part of the log, completed by what the thread has still to do, is what it does alone *)
Definition PInv (l : list (list rcall * list nat)) (c : config) : Prop :=
  length (ths c) = length l
  /\ forall t sc fl, nth_error l t = Some (sc, fl) ->
       exists th, nth_error (ths c) t = Some th /\ fb th = None /\ proj t (glog c) ++ ttrace th = strace fl sc fwd0 0.

Lemma step_pinv l c t c' : PInv l c -> step c t = Some c' -> PInv l c'.
Proof.
  intros [HL HP] Hs. apply step_unfold in Hs as (th & e & th' & s' & Et & Es & Ee & ->). split; simpl.
  - rewrite length_upd. exact HL.
  - intros u sc fl Hu. destruct (HP u sc fl Hu) as (thu & Hn & Hb & E). rewrite proj_snoc.
    destruct (Nat.eq_dec t u) as [<-|Hne].
    + rewrite Nat.eqb_refl. exists th'. split; [eapply nth_upd_same; eauto|].
      rewrite Et in Hn; injection Hn as <-. destruct (tstep_ttrace _ _ _ Hb Es) as [E2 Hb'].
      split; [exact Hb'|]. rewrite <- app_assoc, <- E. simpl. rewrite E2. reflexivity.
    + exists thu. rewrite nth_upd_other by assumption. split; [exact Hn|]. split; [exact Hb|].
      destruct (t =? u) eqn:E'; [apply Nat.eqb_eq in E'; contradiction|]. rewrite app_nil_r. exact E.
Qed.

Definition GInv (l : list (list rcall * list nat)) (c : config) : Prop :=
  Inv c /\ MonInv c /\ PInv l c.

Lemma ginv_init l : GInv l (init l).
Proof.
  split; [|split; [reflexivity|]].
  - split; simpl; [|discriminate]. intros t th H.
    apply nth_error_In in H. apply in_map_iff in H as [[s fl] [<- _]]. apply init_thread_out.
  - split; [apply map_length|]. intros t sc fl H. exists (init_thread sc fl None).
    split; [simpl; rewrite (map_nth_error _ _ _ H); reflexivity|].
    destruct (init_ttrace sc fl) as [E Hb]. split; [exact Hb | exact E].
Qed.

Lemma ginv_step l c t c' : GInv l c -> step c t = Some c' -> GInv l c'.
Proof.
  intros (H1 & H2 & H3) Hs. split; [eapply step_inv; eauto|]. split; [eapply step_mon; eauto | eapply step_pinv; eauto].
Qed.

Theorem ginv_sched l sched : GInv l (fold_left step' sched (init l)).
Proof. apply (gsteps_P step (GInv l) (ginv_step l)). apply ginv_init. Qed.

Definition open_tail (n : nat) (h : option tid) (tail : list (tid * gev)) : Prop :=
  match h with
  | None => tail = []
  | Some t => exists body, tail = (t, EAcq) :: map (pair t) body /\ Forall is_call body /\ t < n
  end.
Definition sec_ok (n : nat) (s : tid * list gev) : Prop := fst s < n /\ Forall is_call (snd s).

Lemma mon_sections n log : forall h, mon n None log = Some h ->
  exists secs tail, log = flat_map render secs ++ tail /\ Forall (sec_ok n) secs /\ open_tail n h tail.
Proof.
  induction log as [|[t e] log IH] using rev_ind; intros h H.
  - injection H as <-. exists [], []. repeat split; constructor.
  - rewrite mon_app in H. destruct (mon n None log) as [h0|]; [|discriminate]. simpl in H.
    destruct (enabled h0 t e) as [h1|] eqn:Ee; [|discriminate].
    destruct (t <? n) eqn:Elt; [|discriminate]. injection H as <-. apply Nat.ltb_lt in Elt.
    destruct (IH h0 eq_refl) as (secs & tail & -> & Hs & Ho).
    apply enabled_cases in Ee as [(-> & -> & ->)|[(-> & -> & ->)|([c [b ->]] & -> & ->)]]; simpl in Ho.
    + (* acquire: a section opens *)
      subst tail. exists secs, [(t, EAcq)]. split; [rewrite app_nil_r; reflexivity|]. split; [exact Hs|].
      exists []. repeat split; [constructor | exact Elt].
    + (* release: the open section is complete *)
      destruct Ho as (body & -> & Hb & _). exists (secs ++ [(t, body)]), []. split.
      * rewrite flat_map_app, app_nil_r, <- app_assoc. simpl. unfold render, section. simpl.
        rewrite map_app, app_nil_r. reflexivity.
      * split; [|reflexivity]. apply Forall_app. split; [exact Hs|]. constructor; [split; assumption | constructor].
    + (* a call: the open section grows *)
      destruct Ho as (body & -> & Hb & Hlt). exists secs, ((t, EAcq) :: map (pair t) (body ++ [ECall c b])). split.
      * rewrite map_app, <- app_assoc. reflexivity.
      * split; [exact Hs|]. exists (body ++ [ECall c b]). repeat split; [|exact Hlt].
        apply Forall_app. split; [exact Hb | repeat constructor].
Qed.

Lemma sectb_sections n log : sectb n None log = true -> Sectioned n log.
Proof.
  intro H. apply sectb_mon in H; [|discriminate].
  destruct (mon_sections n log None H) as (secs & tail & -> & Hs & ->).
  exists secs. split; [apply app_nil_r | exact Hs].
Qed.

Lemma ginv_thread l c t sc fl : GInv l c -> nth_error l t = Some (sc, fl) ->
  exists th, nth_error (ths c) t = Some th /\ proj t (glog c) ++ ttrace th = strace fl sc fwd0 0
             /\ (finished th = true -> ttrace th = []).
Proof.
  intros (HI & _ & _ & HP) Ht. destruct (HP t sc fl Ht) as (th & Hn & _ & E). exists th. split; [exact Hn|]. split; [exact E|].
  intro Hf. destruct HI as [HI _]. specialize (HI t th Hn). destruct (holds (sem c) t).
  - apply t_in_unfinished in HI. congruence.
  - apply finished_ttrace; [apply HI | exact Hf].
Qed.

Lemma ginv_per_thread l c t sc fl : GInv l c -> nth_error l t = Some (sc, fl) -> wf_script Out sc = true ->
  exists rest, proj t (glog c) ++ rest = expected fl sc sst0 0
               /\ (forall th, nth_error (ths c) t = Some th -> finished th = true -> rest = []).
Proof.
  intros HG Ht Hw. destruct (ginv_thread l c t sc fl HG Ht) as (th & Hn & E & Hf).
  rewrite (strace_expected fl sc Out fwd0 sst0 0 Hw rel0) in E.
  exists (ttrace th). split; [exact E|]. intros th' Hn'. rewrite Hn in Hn'. injection Hn' as <-. exact Hf.
Qed.

Lemma ginv_live l c : GInv l c -> all_finished c = false -> exists t, t < length (ths c) /\ step c t <> None.
Proof.
  intros (HI & _) Hf. destruct (forallb_false_nth _ _ Hf) as (u & th & Hu & Hfu).
  destruct (inv_no_deadlock c HI (ex_intro _ u (ex_intro _ th (conj Hu Hfu)))) as [t Ht]. exists t. split; [|exact Ht].
  destruct (Nat.lt_ge_cases t (length (ths c))) as [Hlt|Hge]; [exact Hlt|]. exfalso. apply Ht.
  unfold step. apply nth_error_None in Hge. rewrite Hge. reflexivity.
Qed.

Lemma run_ginv l sched :
  (exists s, run l sched = fold_left step' s (init l)) /\ GInv l (run l sched) /\ all_finished (run l sched) = true.
Proof.
  apply (grun_done step (fun c => length (ths c)) cmeasure step_measure (GInv l) all_finished (ginv_step l) (ginv_live l));
    [apply ginv_init | apply Nat.le_refl].
Qed.

Theorem model_meets_spec : forall i, spec_okb i (model i) = true.
Proof.
  intros [l sched]. unfold spec_okb, model. simpl.
  destruct (run_ginv l sched) as (_ & HG & Hf). set (c := run l sched) in *.
  pose proof HG as (HI & HM & HL & _).
  pose proof (finished_sem_free c HI Hf) as Hs.
  rewrite Hf, Hs. simpl.
  apply andb_true_iff; split.
  - apply mon_sectb. unfold MonInv in HM. rewrite HL, Hs in HM. exact HM.
  - apply forallb_idx_spec. intros t [sc fl] Ht. simpl. unfold thread_okb; simpl.
    destruct (wf_script Out sc) eqn:Ew; [|reflexivity].
    apply (list_eqb_spec _ gev_eqb_spec).
    destruct (ginv_per_thread l c t sc fl HG Ht Ew) as (rest & <- & Hr).
    destruct (nth_error_lt (ths c) t) as [th Hn]; [rewrite HL; apply nth_error_Some; congruence|].
    rewrite (Hr th Hn (forallb_nth _ _ _ _ Hf Hn)). symmetry. apply app_nil_r.
Qed.

Lemma ginv_blocks l c : GInv l c ->
  (exists secs tail, glog c = flat_map render secs ++ tail
                     /\ Forall (sec_ok (length l)) secs /\ open_tail (length l) (sem c) tail)
  /\ (forall t sc fl, nth_error l t = Some (sc, fl) ->
        exists rest bodies, proj t (glog c) ++ rest = flat_map section bodies /\ Forall block_shape bodies).
Proof.
  intro HG. split.
  - destruct HG as (_ & HM & HL & _). unfold MonInv in HM. rewrite HL in HM. apply mon_sections. exact HM.
  - intros t sc fl Ht. destruct (ginv_thread l c t sc fl HG Ht) as (th & _ & E & _).
    destruct (strace_sections fl sc fwd0 0) as (bodies & Eb & Hb).
    exists (ttrace th), bodies. split; [congruence | exact Hb].
Qed.

Lemma outcomes_app a b : outcomes_of_log (a ++ b) = outcomes_of_log a ++ outcomes_of_log b.
Proof.
  induction a as [|e a IH]; simpl; [reflexivity|].
  destruct e as [| |c raised]; try exact IH. destruct c; simpl; rewrite ?IH; reflexivity.
Qed.

Lemma cut_nofault cs tail : forall k, cut [] k cs tail = (map okc cs ++ fst (tail (k + length cs)), snd (tail (k + length cs))).
Proof.
  induction cs as [|c cs IH]; intro k; simpl.
  - rewrite Nat.add_0_r. destruct (tail k); reflexivity.
  - rewrite IH. rewrite <- Nat.add_succ_comm. reflexivity.
Qed.

Lemma outcomes_tag_call g : outcomes_of_log (map okc (tag_call g)) = [].
Proof. unfold tag_call. destruct (any_tags g); reflexivity. Qed.

Theorem expected_outcomes_once s : forall p st k,
  wf_script p s = true -> (match p with Out => True | _ => s_open st <> None end) ->
  outcomes_of_log (expected [] s st k) = outcomes_of_script s.
Proof.
  induction s as [|c r IH]; intros p st k Hwf Hop; [reflexivity|].
  destruct c as [a|tn tg|n|n|kd n|g|]; simpl in Hwf.
  - simpl. apply (IH p); [exact Hwf|]. destruct p; simpl; auto.
  - simpl. apply (IH p); [exact Hwf|]. destruct p; simpl; auto; destruct (s_open st) as [[t0 x]|]; simpl; congruence.
  - destruct p; try discriminate. simpl. apply (IH (Pre n)); [exact Hwf|]. simpl. discriminate.
  - destruct p as [|m|m]; try discriminate; apply andb_true_iff in Hwf as [_ Hwf]; simpl; apply (IH Out); auto.
  - destruct p as [|m|m]; try discriminate. apply andb_true_iff in Hwf as [_ Hwf].
    destruct (s_open st) as [[t0 x]|] eqn:Eo; [|contradiction].
    rewrite (expected_outcome [] kd n r st k t0 x Eo). rewrite cut_nofault. simpl fst; simpl snd.
    unfold section. simpl outcomes_of_log. rewrite !outcomes_app. rewrite !map_app, !outcomes_app, !outcomes_tag_call.
    simpl. f_equal. apply (IH (Post n)); [exact Hwf|]. simpl. congruence.
  - destruct g; simpl.
    + destruct p; try discriminate. apply (IH Out); auto.
    + destruct p; try discriminate. apply (IH Out); auto.
    + apply (IH p); assumption.
    + apply (IH p); assumption.
    + apply (IH p); assumption.
  - discriminate.
Qed.
