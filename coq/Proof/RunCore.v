(* What each step of the machine of Model/Run.v does to the state: the control part (log, caught exceptions,
   cleanup stack, force flag, inserted handlers) and the detail part, the latter as a fold over the detail events of
   Spec/Run.v; up to the cleanup loop and the three stages. *)
From TT Require Import Lib.EqbFacts Lib.Base Lib.ListFacts Gen.Handlers Model.Run Spec.Run.

(* simpl never: goals are rewritten with the lemmas below, here and in the files built on this one *)
Arguments on_exception : simpl never.
Arguments report_traceback : simpl never.
Arguments got_exception : simpl never.
Arguments add_mismatch : simpl never.
Arguments gather : simpl never.
Arguments use_fixture : simpl never.
Arguments exec_act : simpl never.
Arguments run_cleanup : simpl never.
Arguments run_user : simpl never.
Arguments flatten : simpl never.
Arguments nl_dict : simpl never.
Arguments unique_name : simpl never.
Arguments tb_label : simpl never.

Lemma outcome_eqb_spec a b : outcome_eqb a b = true <-> a = b.
Proof. destruct a, b; simpl; eqb_components idtac. Qed.

Lemma cls_eqb_spec a b : cls_eqb a b = true <-> a = b.
Proof.
  revert b. induction a as [| | | | | | | | | | | | |p IH k]; intros b; destruct b; cbn [cls_eqb];
    eqb_components ltac:(first [apply IH | apply Nat.eqb_eq]).
Qed.

Definition is_call (e : tev) : bool := match e with THandler _ _ => false | _ => true end.
Definition calls (t : list tev) : list tev := filter is_call t.
Definition hcalls (t : list tev) : list (nat * cls) :=
  flat_map (fun e => match e with THandler h c => [(h, c)] | _ => [] end) t.

Lemma calls_app a b : calls (a ++ b) = calls a ++ calls b.
Proof. apply filter_app. Qed.
Lemma hcalls_app a b : hcalls (a ++ b) = hcalls a ++ hcalls b.
Proof. apply flat_map_app. Qed.
Lemma calls_handlers c l : calls (map (fun h => THandler h c) l) = [].
Proof. induction l as [|x r IH]; [reflexivity | exact IH]. Qed.
Lemma hcalls_handlers c l : hcalls (map (fun h => THandler h c) l) = map (fun h => (h, c)) l.
Proof. induction l as [|x r IH]; simpl; [reflexivity|]. now rewrite <- IH. Qed.
Lemma flat_map_calls {B} (g : tev -> list B) t : (forall h c, g (THandler h c) = []) -> flat_map g (calls t) = flat_map g t.
Proof.
  intros H. induction t as [|e r IH]; [reflexivity|].
  destruct e; cbn [calls filter is_call flat_map]; fold (calls r); rewrite ?H, IH; reflexivity.
Qed.
Lemma filter_calls (f : tev -> bool) t : (forall h c, f (THandler h c) = false) -> filter f (calls t) = filter f t.
Proof.
  intros H. induction t as [|e r IH]; [reflexivity|].
  destruct e; cbn [calls filter is_call]; fold (calls r); rewrite ?H, IH; reflexivity.
Qed.

(* [papply]: what one detail event of Spec/Run.v does to the detail part ([d_put] mirrors add_detail, [d_tb]
   report_traceback); [proj] forgets the rest of the state, the handler calls are read off the trace *)
Record dst := {
  d_dets : details; d_tbgen : nat; d_cells : list (nat * nat); d_onexc : list nat; d_calls : list (nat * cls) }.
Definition proj (s : st) : dst :=
  {| d_dets := dets s; d_tbgen := tbgen s; d_cells := cells s; d_onexc := onexc s; d_calls := hcalls (tr s) |}.
Definition dcell (loc : nat) (d : dst) : nat := match aget loc (d_cells d) with Some v => v | None => 0 end.
Definition d_put (n : dname) (c : content) (d : dst) : dst :=
  {| d_dets := dput n c (d_dets d); d_tbgen := d_tbgen d; d_cells := d_cells d; d_onexc := d_onexc d;
     d_calls := d_calls d |}.
Definition d_tb (d : dst) : dst :=
  let '(lab, nxt) := tb_label (length (d_dets d)) (d_tbgen d) n_traceback (d_dets d) in
  {| d_dets := dput lab CTb (d_dets d); d_tbgen := nxt; d_cells := d_cells d; d_onexc := d_onexc d;
     d_calls := d_calls d |}.
Definition papply (d : dst) (e : devent) : dst :=
  match e with
  | DUser n loc => d_put n (CLazy loc) d
  | DSetCell loc v => {| d_dets := d_dets d; d_tbgen := d_tbgen d; d_cells := aput loc v (d_cells d);
                         d_onexc := d_onexc d; d_calls := d_calls d |}
  | DMis n loc => d_put (unique_name n (d_dets d)) (CLazy loc) d
  | DStack => d_put (unique_name n_failed_expectation (d_dets d)) CStack d
  | DFx n loc => d_put (unique_name n (d_dets d)) (CSnap (dcell loc d)) d
  | DTb => d_tb d
  | DReason r => d_put n_reason (CReason r) d
  | DOnExc h => {| d_dets := d_dets d; d_tbgen := d_tbgen d; d_cells := d_cells d;
                   d_onexc := d_onexc d ++ [h]; d_calls := d_calls d |}
  | DExc c => let d1 := if no_traceback c then d else d_tb d in
              {| d_dets := d_dets d1; d_tbgen := d_tbgen d1; d_cells := d_cells d1; d_onexc := d_onexc d1;
                 d_calls := d_calls d1 ++ map (fun h => (h, c)) (d_onexc d1) |}
  end.
Definition prun (evs : list devent) (d : dst) : dst := fold_left papply evs d.
Lemma prun_app a b d : prun (a ++ b) d = prun b (prun a d).
Proof. apply fold_left_app. Qed.

(* only the detail part and the trace of handler calls change, by the detail events [evs] *)
Record dstep (s s' : st) (evs : list devent) : Prop := {
  ds_log : log s' = log s;
  ds_excs : excs s' = excs s;
  ds_stack : stack s' = stack s;
  ds_attrs : attrs s' = attrs s;
  ds_force : force s' = force s;
  ds_uh : uh s' = uh s;
  ds_calls : calls (tr s') = calls (tr s);
  ds_det : proj s' = prun evs (proj s) }.

Lemma dstep_refl s : dstep s s [].
Proof. constructor; reflexivity. Qed.
Lemma dstep_trans {a b c e1 e2} : dstep a b e1 -> dstep b c e2 -> dstep a c (e1 ++ e2).
Proof. intros [] []; constructor; try congruence. rewrite prun_app. congruence. Qed.
Lemma dstep_eq s s' e e' : dstep s s' e -> e = e' -> dstep s s' e'.
Proof. intros H ->. exact H. Qed.

Lemma ds_reason r s : dstep s (add_detail n_reason (CReason r) s) [DReason r].
Proof. constructor; reflexivity. Qed.
Lemma ds_tb s : dstep s (report_traceback s) [DTb].
Proof.
  unfold report_traceback. constructor; try (destruct (tb_label _ _ _ _); reflexivity).
  unfold prun, fold_left, papply, d_tb. cbn [proj d_dets d_tbgen]. destruct (tb_label _ _ _ _). reflexivity.
Qed.
Lemma ds_mismatch mm s : dstep s (add_mismatch mm s) (mm_events mm).
Proof.
  unfold add_mismatch, mm_events. revert s. induction (nl_dict mm) as [|nl r IH]; intros s; [apply dstep_refl|].
  eapply (dstep_trans (e1 := [_])); [|exact (IH _)]. constructor; reflexivity.
Qed.

(* [c loc] yields what cell [loc] holds in [s] *)
Lemma ds_gather_gen (c : nat -> content) l : forall s,
  (forall s' loc, cells s' = cells s -> snapshot s' (c loc) = CSnap (cell loc s)) ->
  dstep s (gather (map (fun nl => (fst nl, c (snd nl))) l) s) (map (fun nl => DFx (fst nl) (snd nl)) l).
Proof.
  unfold gather. induction l as [|nl r IH]; intros s H; [apply dstep_refl|]. cbn [map fold_left fst snd].
  eapply (dstep_trans (e1 := [_])); [|apply IH; exact H]. constructor; try reflexivity.
  unfold proj, prun, d_put. cbn. rewrite (H s _ eq_refl). reflexivity.
Qed.
Lemma ds_gather fx s : dstep s (gather (fx_source fx) s) (fx_events fx).
Proof. apply (ds_gather_gen CLazy). intros s' loc E. cbn. unfold cell. now rewrite E. Qed.
Lemma ds_gather_snap fx s s1 :
  cells s = cells s1 -> dstep s (gather (map (fun nc => (fst nc, snapshot s1 (snd nc))) (fx_source fx)) s) (fx_events fx).
Proof.
  intros Hc. unfold fx_source. rewrite map_map. apply (ds_gather_gen (fun loc => CSnap (cell loc s1))).
  intros s' loc E. cbn. unfold cell. now rewrite Hc.
Qed.

Section acts_nest_ind.
  Variables (P : act -> Prop) (Q : list act -> Prop).
  Hypothesis Hnil : Q [].
  Hypothesis Hcons : forall a r, P a -> Q r -> Q (a :: r).
  Hypothesis HC : forall t body, Q body -> P (ACleanup t body).
  Hypothesis HO : forall a, (forall t body, a <> ACleanup t body) -> P a.
  Fixpoint act_nest_ind (a : act) : P a.
  Proof.
    destruct a as [n loc | loc v | mm | mm | t body | x v | fx | h | | c o | r p | pk | e];
      try (apply HO; intros; discriminate).
    apply HC. induction body as [|x r IH]; [exact Hnil | exact (Hcons x r (act_nest_ind x) IH)].
  Defined.
  Lemma acts_nest_ind l : Q l.
  Proof. induction l as [|x r IH]; [exact Hnil | exact (Hcons x r (act_nest_ind x) IH)]. Qed.
End acts_nest_ind.

(* the repair of F3 *)
Lemma flatten_nonempty e : flatten e <> [].
Proof.
  revert e. fix IH 1. intros [c a | [|x r]]; try discriminate.
  change (flatten (Multi (x :: r))) with (flatten x ++ flat_map flatten r).
  intro E. apply app_eq_nil in E. exact (IH x (proj1 E)).
Qed.

Lemma aput_aput_same k v w a : aget k a = Some w -> aput k w (aput k v a) = a.
Proof.
  induction a as [|[j x] r IH]; simpl; [discriminate|].
  destruct (Nat.eqb k j) eqn:E; simpl; rewrite E.
  - intros H; injection H as ->. reflexivity.
  - intros H. now rewrite IH.
Qed.
Lemma adel_aput_fresh k v a : aget k a = None -> adel k (aput k v a) = a.
Proof.
  induction a as [|[j x] r IH]; simpl.
  - now rewrite Nat.eqb_refl.
  - destruct (Nat.eqb k j) eqn:E; simpl; rewrite E; [discriminate|]. intros H. now rewrite IH.
Qed.

(* what the pending restore actions would make of the namespaces of the patched objects, top of the stack first *)
Definition undo1 (a : list (nat * nat)) (k : cleanup) : list (nat * nat) :=
  match k with
  | KRestore x (Some v) => aput x v a
  | KRestore x None => adel x a
  | _ => a
  end.
Definition undo_all (stk : list cleanup) (a : list (nat * nat)) : list (nat * nat) := fold_left undo1 stk a.

Definition ksize (k : cleanup) : nat := match k with KUser _ b => S (acts_size b) | _ => 1 end.
Definition stack_size (l : list cleanup) : nat := fold_right (fun k n => ksize k + n) 0 l.
(* the Spec/Run entries that popping the stack will run, in order: each user cleanup is followed by what its body
   registers *)
Definition k_entries (k : cleanup) : list entry :=
  match k with
  | KUser t b => EUser t b :: pending b
  | KRestore a _ => [ERestore a]
  | KGather fx => [EGather fx]
  | KFxClean fx => [EFx fx]
  end.
Definition entries_of (l : list cleanup) : list entry := flat_map k_entries l.

Lemma act_entries_cleanup t b : act_entries (ACleanup t b) = EUser t b :: pending b.
Proof. reflexivity. Qed.

(* every entry that runs costs the cleanup loop one unit of fuel *)
Lemma pending_length l : length (pending l) <= acts_size l.
Proof.
  apply (acts_nest_ind (fun a => length (act_entries a) <= act_size a) (fun l => length (pending l) <= acts_size l)).
  - apply le_n.
  - intros a r Ha Hr. cbn [pending acts_size fold_right]. fold (acts_size r).
    destruct (act_raise a); [apply Nat.le_0_l|]. rewrite app_length, Nat.add_comm. now apply Nat.add_le_mono.
  - intros t body H. rewrite act_entries_cleanup. change (act_size (ACleanup t body)) with (S (acts_size body)).
    now apply le_n_S.
  - intros a Ha. destruct a; try (exfalso; eapply Ha; reflexivity); cbn; try (destruct (fixture_raise fx)); cbn; auto.
Qed.
Lemma entries_of_length stk : length (entries_of stk) <= stack_size stk.
Proof.
  induction stk as [|k r IH]; [apply le_n|]. cbn [entries_of flat_map stack_size fold_right]. rewrite app_length.
  apply Nat.add_le_mono; [|exact IH]. destruct k; cbn; auto. apply le_n_S, pending_length.
Qed.

(* [ran s s' lg ex fc ins evs]: between [s] and [s'] the bodies logged [lg], the exceptions [ex] were
   caught, force_failure was set iff [fc], the handlers [ins] were inserted, the detail events were [evs]; no call
   on the result (start, outcome, stop) was made: [rn_calls] *)
Record ran (s s' : st) (lg : list lsh) (ex : list exc) (fc : bool)
           (ins : list (cls * outcome)) (evs : list devent) : Prop := {
  rn_log : map shape (log s') = map shape (log s) ++ lg;
  rn_excs : excs s' = excs s ++ ex;
  rn_force : force s' = force s || fc;
  rn_calls : calls (tr s') = calls (tr s);
  rn_uh : uh s' = rev ins ++ uh s;
  rn_det : proj s' = prun evs (proj s) }.

(* ... [step] adds the cleanup stack: the entries [pend] now wait in front of the ones that waited
   before, and the restore actions among them lead back to the same namespaces *)
Record step (s s' : st) (lg : list lsh) (ex : list exc) (fc : bool) (pend : list entry)
            (ins : list (cls * outcome)) (evs : list devent) : Prop := {
  st_ran : ran s s' lg ex fc ins evs;
  st_entries : entries_of (stack s') = pend ++ entries_of (stack s);
  st_attrs : undo_all (stack s') (attrs s') = undo_all (stack s) (attrs s) }.

Lemma ran_refl s : ran s s [] [] false [] [].
Proof. constructor; rewrite ?app_nil_r, ?orb_false_r; reflexivity. Qed.
Lemma step_refl s : step s s [] [] false [] [] [].
Proof. constructor; [apply ran_refl | reflexivity ..]. Qed.

Lemma ran_trans {a b c l1 l2 x1 x2 f1 f2 i1 i2 e1 e2} :
  ran a b l1 x1 f1 i1 e1 -> ran b c l2 x2 f2 i2 e2 ->
  ran a c (l1 ++ l2) (x1 ++ x2) (f1 || f2) (i1 ++ i2) (e1 ++ e2).
Proof.
  intros [A1 A2 A3 A4 A5 A6] [B1 B2 B3 B4 B5 B6]. constructor.
  - rewrite B1, A1, app_assoc. reflexivity.
  - rewrite B2, A2, app_assoc. reflexivity.
  - rewrite B3, A3, orb_assoc. reflexivity.
  - congruence.
  - rewrite B5, A5, rev_app_distr, app_assoc. reflexivity.
  - rewrite prun_app. congruence.
Qed.
Lemma step_trans {a b c l1 l2 x1 x2 f1 f2 p1 p2 i1 i2 e1 e2} :
  step a b l1 x1 f1 p1 i1 e1 -> step b c l2 x2 f2 p2 i2 e2 ->
  step a c (l1 ++ l2) (x1 ++ x2) (f1 || f2) (p2 ++ p1) (i1 ++ i2) (e1 ++ e2).
Proof.
  intros [A1 A2 A3] [B1 B2 B3]. constructor.
  - exact (ran_trans A1 B1).
  - rewrite B2, A2, app_assoc. reflexivity.
  - congruence.
Qed.

Lemma ran_eq s s' l x f i e l' x' f' i' e' :
  ran s s' l x f i e -> l = l' -> x = x' -> f = f' -> i = i' -> e = e' -> ran s s' l' x' f' i' e'.
Proof. intros H -> -> -> -> ->. exact H. Qed.
Lemma step_eq s s' l x f p i e l' x' f' p' i' e' :
  step s s' l x f p i e -> l = l' -> x = x' -> f = f' -> p = p' -> i = i' -> e = e' -> step s s' l' x' f' p' i' e'.
Proof. intros H -> -> -> -> -> ->. exact H. Qed.
(* compose by [t], then bring the lists to the shape of the goal *)
Tactic Notation "step_chain" tactic(t) :=
  eapply step_eq; [t | try (simpl; rewrite ?app_nil_r, ?orb_false_r; reflexivity) ..].

Lemma kept_step {s s' lg ex fc ins evs} :
  ran s s' lg ex fc ins evs -> stack s' = stack s -> attrs s' = attrs s -> step s s' lg ex fc [] ins evs.
Proof. intros R K A. constructor; [exact R | now rewrite K | now rewrite K, A]. Qed.
Lemma dstep_step {s s' evs} : dstep s s' evs -> step s s' [] [] false [] [] evs.
Proof.
  intros [Q1 Q2 Q3 Q4 Q5 Q6 Q7 Q8]. apply kept_step; [|exact Q3 | exact Q4].
  constructor; simpl; rewrite ?app_nil_r, ?orb_false_r; congruence.
Qed.

Lemma step_log s l : step s (add_log l s) (map shape l) [] false [] [] [].
Proof. constructor; [constructor|..]; simpl; rewrite ?app_nil_r, ?orb_false_r, ?map_app; reflexivity. Qed.
Lemma step_logged {s s'} l {lg ex fc pend ins evs} :
  step (add_log l s) s' lg ex fc pend ins evs -> step s s' (map shape l ++ lg) ex fc pend ins evs.
Proof. intros H. step_chain (exact (step_trans (step_log s l) H)). Qed.
Lemma step_dstep {s s1 s2 lg ex fc pend ins evs evs2} :
  step s s1 lg ex fc pend ins evs -> dstep s1 s2 evs2 -> step s s2 lg ex fc pend ins (evs ++ evs2).
Proof. intros H D. step_chain (exact (step_trans H (dstep_step D))). Qed.
Lemma step_set_force s s' lg ex fc pend ins evs :
  step s s' lg ex fc pend ins evs -> step s (set_force true s') lg ex true pend ins evs.
Proof. intros [[] ? ?]. constructor; [constructor|..]; cbn; try assumption. symmetry. apply orb_true_r. Qed.
(* addCleanup of an entry that is not a restore action *)
Lemma step_push k s : (forall a, undo1 a k = a) -> step s (push k s) [] [] false (k_entries k) [] [].
Proof.
  intros H. constructor; [destruct (ran_refl s); constructor; assumption | reflexivity |].
  cbn [push stack attrs set_stack undo_all fold_left]. now rewrite H.
Qed.

Lemma ds_on_exception e s : dstep s (on_exception e s) [DExc (cls_of e)].
Proof.
  unfold on_exception.
  assert (Q : dstep s (if no_traceback (cls_of e) then s else report_traceback s)
                      (if no_traceback (cls_of e) then [] else [DTb])).
  { destruct (no_traceback _); [apply dstep_refl | apply ds_tb]. }
  destruct Q as [Q1 Q2 Q3 Q4 Q5 Q6 Q7 Q8].
  set (s1 := if no_traceback (cls_of e) then s else report_traceback s) in *.
  constructor; cbn [log excs stack attrs force uh tr add_tr set_tr]; try assumption.
  - rewrite calls_app, calls_handlers, app_nil_r. exact Q7.
  - assert (P1 : proj s1 = if no_traceback (cls_of e) then proj s else d_tb (proj s)).
    { rewrite Q8. destruct (no_traceback (cls_of e)); reflexivity. }
    cbn [prun fold_left papply]. rewrite <- P1.
    unfold proj at 1. cbn [dets tbgen cells onexc tr add_tr set_tr]. rewrite hcalls_app, hcalls_handlers. reflexivity.
Qed.

(* catching one flattened exception; [got_exception e s] is, by conversion, [fold_left got_step (flatten e) s] *)
Definition got_step (s : st) (x : exc) : st :=
  let s1 := on_exception x s in set_excs (excs s1 ++ [x]) s1.

Lemma got_exception_gen l : forall s,
  let s' := fold_left got_step l s in
  ran s s' [] l false [] (map (fun x => DExc (cls_of x)) l) /\ stack s' = stack s /\ attrs s' = attrs s.
Proof.
  induction l as [|x r IH]; intros s; cbn [fold_left map].
  - split; [apply ran_refl | split; reflexivity].
  - destruct (IH (got_step s x)) as (I1 & I2 & I3). destruct (ds_on_exception x s) as [O1 O2 O3 O4 O5 O6 O7 O8].
    split; [|split; [exact (eq_trans I2 O3) | exact (eq_trans I3 O4)]].
    refine (ran_trans (_ : ran s (got_step s x) [] [x] false [] [DExc (cls_of x)]) I1).
    constructor; unfold got_step; cbn [log excs force tr uh set_excs rev app]; rewrite ?app_nil_r, ?orb_false_r;
      try congruence.
    exact O8.
Qed.

Definition raisedb (r : option exc) : bool := match r with Some _ => true | None => false end.
Lemma raisedb_caught r : raisedb r = negb (is_nil (caught r)).
Proof.
  destruct r as [e|]; simpl; [|reflexivity].
  pose proof (flatten_nonempty e). destruct (flatten e); [contradiction | reflexivity].
Qed.

(* _run_user around a piece of user code that itself caught nothing; [r] is what the code returned *)
Lemma run_user_step {s r oe lg fc pend ins evs} :
  snd r = oe -> step s (fst r) lg [] fc pend ins evs ->
  exists s1, run_user r = (s1, raisedb oe) /\ step s s1 lg (caught oe) fc pend ins (evs ++ exc_events oe).
Proof.
  destruct r as [s0 oe0]. cbn [fst snd]. intros -> S. unfold run_user.
  destruct oe as [e|]; cbn [caught raisedb]; eexists; (split; [reflexivity|]); [|step_chain (exact S)].
  destruct (got_exception_gen (flatten e) s0) as (G & K & A).
  step_chain (exact (step_trans S (kept_step G K A))).
Qed.

Lemma run_fx_cleanups_spec cs s :
  snd (run_fx_cleanups cs s) = fx_errs cs
  /\ step s (fst (run_fx_cleanups cs s)) (fx_cleanup_log cs) [] false [] [] [].
Proof.
  unfold run_fx_cleanups, fx_errs, fx_cleanup_log. induction cs as [|c q [I1 I2]]; [split; [reflexivity | apply step_refl]|].
  cbn [rev]. rewrite fold_left_app, flat_map_app, map_app. cbn [fold_left flat_map map fst snd].
  split; [|exact (step_trans I2 (step_log _ [LTok (fst c)]))].
  rewrite I1. destruct (snd c); now rewrite ?app_nil_r.
Qed.

Lemma fx_cleanup_spec cs s :
  snd (fx_cleanup cs s) = fx_cleanup_raise cs
  /\ step s (fst (fx_cleanup cs s)) (fx_cleanup_log cs) [] false [] [] [].
Proof.
  unfold fx_cleanup, fx_cleanup_raise. destruct (run_fx_cleanups_spec cs s) as [B A].
  destruct (run_fx_cleanups cs s) as [s1 errs]. simpl in *. subst errs. split; [|exact A].
  destruct (fx_errs cs) as [|e [|e' r]]; reflexivity.
Qed.

Definition act_pend (a : act) : list entry := match act_raise a with Some _ => [] | None => act_entries a end.

Lemma use_fixture_spec fx s :
  snd (use_fixture fx s) = fixture_raise fx
  /\ step s (fst (use_fixture fx s)) (act_log (AFixture fx)) [] false (act_pend (AFixture fx)) [] (act_events (AFixture fx)).
Proof.
  unfold use_fixture, act_pend. cbn [act_log act_entries act_events act_raise]. unfold fixture_raise.
  destruct (fx_fail fx) as [e|]; [destruct (fx_eval_raise fx) as [g|]; [|destruct (fx_old fx)]|]; rewrite ?app_nil_r.
  - (* a detail cannot be evaluated: what was gathered before it, the traceback, the new exception *)
    split; [reflexivity|].
    destruct (fx_old fx); exact (step_logged [_] (dstep_step (dstep_trans (ds_gather fx _) (ds_tb _)))).
  - split; [reflexivity | exact (step_logged [_] (dstep_step (ds_gather fx _)))].
  - destruct (run_fx_cleanups_spec (fx_cleanups fx) (add_log [LTok (fx_tok fx)] s)) as [B A].
    destruct (run_fx_cleanups _ _) as [s2 errs]. cbn [fst snd] in *. subst errs. split; [reflexivity|].
    assert (Hc : cells s2 = cells (add_log [LTok (fx_tok fx)] s)).
    { destruct A as [[_ _ _ _ _ D] _ _]. exact (f_equal d_cells D). }
    exact (step_logged [_] (step_dstep A (ds_gather_snap fx _ _ Hc))).
  - split; [reflexivity|].
    pose proof (step_push (KFxClean fx) (add_log [LTok (fx_tok fx)] s) (fun _ => eq_refl)) as P1.
    exact (step_logged [_] (step_trans P1 (step_push (KGather fx) _ (fun _ => eq_refl)))).
Qed.

Lemma exec_act_spec a s :
  snd (exec_act a s) = act_raise a
  /\ step s (fst (exec_act a s)) (act_log a) [] (sets_force a) (act_pend a) (act_inserts a) (act_events a).
Proof.
  destruct a as [n loc | loc v | mm | mm | t body | a v | fx | h | | c o | r p | pk | e];
    try exact (use_fixture_spec fx s); unfold exec_act, act_pend; try (split; [reflexivity|]); cbn [fst act_raise].
  - apply dstep_step. constructor; reflexivity.
  - apply dstep_step. constructor; reflexivity.
  - eapply step_set_force, dstep_step, dstep_trans; [apply ds_mismatch|]. constructor; reflexivity.
  - apply dstep_step, ds_mismatch.
  - apply (step_push (KUser t body)). reflexivity.
  - (* patch: the restore action pushed undoes the assignment *)
    constructor; [constructor|..]; simpl; rewrite ?app_nil_r, ?orb_false_r, ?map_app; try reflexivity.
    f_equal. destruct (aget a (attrs s)) eqn:G; [now apply aput_aput_same | now apply adel_aput_fresh].
  - apply dstep_step. constructor; reflexivity.
  - eapply step_set_force, step_refl.
  - constructor; [constructor|..]; simpl; rewrite ?app_nil_r, ?orb_false_r; reflexivity.
  - cbn [act_events]. destruct p as [e|]; [destruct (isinstance e CFail)|]; (split; [reflexivity|]); apply dstep_step.
    + exact (dstep_trans (ds_reason (Some r) s) (ds_tb _)).
    + apply ds_reason.
    + apply ds_reason.
  - apply step_refl.
  - apply step_refl.
Qed.

Lemma pending_cons a r : pending (a :: r) = match act_raise a with Some _ => [] | None => pending r end ++ act_pend a.
Proof. unfold act_pend. cbn [pending]. destruct (act_raise a); reflexivity. Qed.

Lemma exec_acts_spec l : forall s,
  snd (exec_acts l s) = acts_raise l
  /\ step s (fst (exec_acts l s)) (acts_log l) [] (existsb sets_force (executed l)) (pending l)
          (acts_inserts l) (acts_events l).
Proof.
  induction l as [|a r IH]; intros s; [split; [reflexivity | apply step_refl]|].
  cbn [exec_acts acts_raise]. rewrite pending_cons. destruct (exec_act_spec a s) as [A B].
  destruct (exec_act a s) as [s1 ra]. cbn [fst snd] in *. subst ra.
  unfold acts_log, acts_inserts, acts_events. cbn [executed].
  destruct (act_raise a) as [e|].
  - split; [reflexivity|]. cbn [flat_map existsb fst]. rewrite !app_nil_r, orb_false_r. exact B.
  - destruct (IH s1) as [A' B']. split; [exact A' | exact (step_trans B B')].
Qed.

Lemma stage_spec m s :
  let r := exec_acts (snd m) (add_log [LTok (fst m)] s) in
  snd r = acts_raise (snd m)
  /\ step s (fst r) (stage_log m) [] (existsb sets_force (executed (snd m))) (pending (snd m))
          (acts_inserts (snd m)) (acts_events (snd m)).
Proof.
  destruct (exec_acts_spec (snd m) (add_log [LTok (fst m)] s)) as [A B].
  split; [exact A | exact (step_logged [LTok (fst m)] B)].
Qed.

Definition entries_ran (E : list entry) (s s' : st) : Prop :=
  ran s s' (flat_map entry_log E) (flat_map (fun e => caught (entry_raise e)) E) (existsb entry_forces E)
      (flat_map entry_inserts E) (flat_map entry_events E).

Definition entry_hd (k : cleanup) : entry :=
  match k with
  | KUser t b => EUser t b | KRestore a _ => ERestore a | KGather fx => EGather fx | KFxClean fx => EFx fx
  end.
Definition k_rest (k : cleanup) : list entry := match k with KUser _ b => pending b | _ => [] end.
Lemma k_entries_split k : k_entries k = entry_hd k :: k_rest k.
Proof. destruct k; reflexivity. Qed.

(* the detail events of an entry before what it raises is caught *)
Definition entry_pre (e : entry) : list devent :=
  match e with EUser _ b => acts_events b | EGather fx => fx_events fx | _ => [] end.
Lemma entry_events_split e : entry_events e = entry_pre e ++ exc_events (entry_raise e).
Proof. destruct e; simpl; rewrite ?app_nil_r; reflexivity. Qed.

(* the top entry [k] of _cleanups popped: a restore action is seen from the state where the namespaces are
   already what it makes them, so that it is a step like any other entry *)
Definition popped (k : cleanup) (rest : list cleanup) (s : st) : st :=
  set_attrs (undo1 (attrs s) k) (set_stack rest s).

Lemma ran_popped {k rest s s' lg ex fc ins evs} :
  ran (popped k rest s) s' lg ex fc ins evs -> ran s s' lg ex fc ins evs.
Proof. intros []. constructor; assumption. Qed.

Lemma run_cleanup_spec k rest s :
  let r := run_cleanup k (set_stack rest s) in
  snd r = entry_raise (entry_hd k)
  /\ step (popped k rest s) (fst r) (entry_log (entry_hd k)) [] (entry_forces (entry_hd k)) (k_rest k)
          (entry_inserts (entry_hd k)) (entry_pre (entry_hd k)).
Proof.
  destruct k as [t b | a old | fx | fx]; unfold run_cleanup; cbv zeta.
  - exact (stage_spec (t, b) (set_stack rest s)).
  - split; [reflexivity|]. destruct old; exact (step_log _ _).
  - split; [reflexivity | exact (dstep_step (ds_gather fx _))].
  - exact (fx_cleanup_spec (fx_cleanups fx) (set_stack rest s)).
Qed.

Theorem run_cleanups_spec fuel : forall s,
  length (entries_of (stack s)) <= fuel ->
  exists s',
    run_cleanups fuel s
    = (s', negb (is_nil (flat_map (fun e => caught (entry_raise e)) (entries_of (stack s)))), false)
    /\ entries_ran (entries_of (stack s)) s s'
    /\ stack s' = []
    /\ attrs s' = undo_all (stack s) (attrs s).
Proof.
  induction fuel as [|f IH]; intros s Hf; destruct (stack s) as [|k rest] eqn:Est.
  - exists s. cbn [run_cleanups]. rewrite Est. split; [reflexivity|]. split; [apply ran_refl|]. split; reflexivity.
  - cbn [entries_of flat_map] in Hf. rewrite k_entries_split in Hf. inversion Hf.
  - exists s. cbn [run_cleanups]. rewrite Est. split; [reflexivity|]. split; [apply ran_refl|]. split; reflexivity.
  - cbn [run_cleanups]. rewrite Est.
    destruct (run_cleanup_spec k rest s) as [R1 R2]. cbv zeta in *.
    destruct (run_user_step R1 R2) as (s2 & -> & [U E A]).
    cbn [popped stack attrs set_attrs set_stack] in E, A.
    rewrite <- entry_events_split in U. apply ran_popped in U.
    assert (EE : entries_of (k :: rest) = entry_hd k :: entries_of (stack s2)).
    { cbn [entries_of flat_map]. rewrite k_entries_split, E. reflexivity. }
    rewrite EE in *.
    destruct (IH s2) as (s' & -> & I2 & I3 & I4); [exact (le_S_n _ _ Hf)|].
    exists s'. split.
    { cbn [flat_map]. rewrite is_nil_app, negb_andb, <- raisedb_caught. reflexivity. }
    split; [exact (ran_trans U I2)|]. split; [exact I3 | exact (eq_trans I4 A)].
Qed.

Lemma run_method_spec m up s :
  snd (run_method m up s) = match acts_raise (snd m) with
                            | Some e => Some e
                            | None => if up then None else Some (Exc CValueError None)
                            end
  /\ step s (fst (run_method m up s)) (stage_log m) [] (existsb sets_force (executed (snd m))) (pending (snd m))
          (acts_inserts (snd m)) (acts_events (snd m)).
Proof.
  unfold run_method. destruct (stage_spec m s) as [A B]. cbv zeta in *.
  destruct (exec_acts (snd m) (add_log [LTok (fst m)] s)) as [s1 oe]. cbn [fst snd] in *. subst oe.
  destruct (acts_raise (snd m)); split; first [reflexivity | exact B].
Qed.

(* the detail events of the test method up to what it raises *)
Definition body_pre (p : prog) : list devent :=
  acts_events (snd (p_body p))
  ++ (if p_xfail p then match acts_raise (snd (p_body p)) with
                        | Some e => if isinstance e CException then [DTb] else []
                        | None => []
                        end else []).
Lemma body_events_split p : body_events p = body_pre p ++ exc_events (body_raise p).
Proof. unfold body_events, body_pre. now rewrite app_assoc. Qed.

Lemma run_test_method_spec p s :
  snd (run_test_method p s) = body_raise p
  /\ step s (fst (run_test_method p s)) (stage_log (p_body p)) []
          (existsb sets_force (executed (snd (p_body p)))) (pending (snd (p_body p)))
          (acts_inserts (snd (p_body p))) (body_pre p).
Proof.
  unfold run_test_method, body_raise, body_pre. destruct (stage_spec (p_body p) s) as [A B]. cbv zeta in *.
  destruct (exec_acts (snd (p_body p)) (add_log [LTok (fst (p_body p))] s)) as [s1 oe]. cbn [fst snd] in *. subst oe.
  destruct (p_xfail p); [|split; [reflexivity | now rewrite app_nil_r]].
  destruct (acts_raise (snd (p_body p))) as [e|]; [|split; [reflexivity | now rewrite app_nil_r]].
  (* the wrapper of @expectedFailure reports the traceback of what derives from Exception *)
  destruct (isinstance e CException); (split; [reflexivity|]); cbn [fst].
  - exact (step_dstep B (ds_tb _)).
  - now rewrite app_nil_r.
Qed.
