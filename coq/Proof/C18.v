(* Lemmas behind Props/C18.v.  What a call delivers is a function of the calls made before it
   ([deliveries]); the router's fields are functions of that history too ([Inv]), which is how the
   model's run is shown to be the trace of [deliveries].  Every clause is then read off that function. *)
From TT Require Import Lib.Base Lib.ListFacts Model.Router Spec.C18 Corr.C18 Lib.EqbFacts Proof.Stepwise.

Lemma route_eqb_spec a b : route_eqb a b = true <-> a = b.
Proof. apply option_eqb_spec, nats_eqb_spec. Qed.
Lemma id_eqb_spec a b : id_eqb a b = true <-> a = b.
Proof. apply onat_eqb_spec. Qed.

Lemma event_eqb_spec a b : event_eqb a b = true <-> a = b.
Proof.
  destruct a, b. unfold event_eqb, onat_eqb, route_eqb, lnat_eqb; simpl.
  eqb_components ltac:(first [apply onat_eqb_spec | apply (option_eqb_spec _ nats_eqb_spec) | apply bool_eqb_spec]).
Qed.

Lemma call_eqb_spec a b : call_eqb a b = true <-> a = b.
Proof. destruct a, b; simpl; eqb_components ltac:(apply event_eqb_spec). Qed.

Lemma calls_eqb_spec a b : list_eqb call_eqb a b = true <-> a = b.
Proof. apply list_eqb_spec. exact call_eqb_spec. Qed.

Lemma step_obs_eqb_spec a b : step_obs_eqb a b = true <-> a = b.
Proof.
  destruct a, b. unfold step_obs_eqb; simpl.
  eqb_components ltac:(first [apply bool_eqb_spec | apply (list_eqb_spec _ calls_eqb_spec)]).
Qed.

Lemma forallb_combine_seq {A} (d : A) (P : A -> nat -> bool) new : forall a,
  forallb (fun kc => P (snd kc) (fst kc)) (combine (seq a (length new)) new) = true
  <-> forall k, k < length new -> P (nth k new d) (a + k) = true.
Proof.
  induction new as [|x r IH]; intro a; simpl.
  - split; [intros _ k Hk; inversion Hk | reflexivity].
  - rewrite andb_true_iff, IH. split.
    + intros [H0 H] [|k] Hk; [rewrite Nat.add_0_r; exact H0|].
      rewrite Nat.add_succ_r. apply (H k). apply Nat.succ_lt_mono. exact Hk.
    + intro H. split; [specialize (H 0); rewrite Nat.add_0_r in H; apply H; apply Nat.lt_0_succ|].
      intros k Hk. specialize (H (S k)). rewrite Nat.add_succ_r in H.
      apply H. apply -> Nat.succ_lt_mono. exact Hk.
Qed.

Lemma new_is_spec n f new : new_is n f new = true <-> New_is n f new.
Proof.
  unfold new_is, New_is. rewrite andb_true_iff, Nat.eqb_eq.
  split; intros [<- H]; (split; [reflexivity|]).
  - intros k Hk. apply calls_eqb_spec.
    exact (proj1 (forallb_combine_seq [] (fun c k => list_eqb call_eqb c (f k)) new 0) H k Hk).
  - apply (forallb_combine_seq [] (fun c k => list_eqb call_eqb c (f k)) new 0).
    intros k Hk. apply calls_eqb_spec. exact (H k Hk).
Qed.

Lemma per_sink_nth n ds k : k < n -> nth k (per_sink n ds) [] = calls_for ds k.
Proof.
  intro Hk. unfold per_sink.
  rewrite (nth_indep _ [] (calls_for ds 0)) by (rewrite map_length, seq_length; exact Hk).
  rewrite map_nth, seq_nth by exact Hk. reflexivity.
Qed.

Lemma per_sink_New_is n ds f : (forall k, k < n -> calls_for ds k = f k) -> New_is n f (per_sink n ds).
Proof.
  intro E. split; [unfold per_sink; rewrite map_length; apply seq_length|].
  intros k Hk. rewrite per_sink_nth by exact Hk. apply E. exact Hk.
Qed.

Lemma calls_for_nil k : calls_for [] k = [].
Proof. reflexivity. Qed.

Lemma calls_for_one s c k : calls_for [(s, c)] k = only s c k.
Proof. unfold calls_for, only; simpl. rewrite (Nat.eqb_sym k s). destruct (Nat.eqb s k); reflexivity. Qed.

Lemma calls_for_map (c : call) sinks k :
  calls_for (map (fun s => (s, c)) sinks) k = repeat c (count k sinks).
Proof.
  unfold calls_for, count. induction sinks as [|x r IH]; simpl; [reflexivity|].
  destruct (Nat.eq_dec x k) as [->|N].
  - rewrite Nat.eqb_refl. simpl. rewrite IH. reflexivity.
  - apply Nat.eqb_neq in N. rewrite N. exact IH.
Qed.

Lemma first_seg_route_code c r : first_seg (route_code c r) = Some c.
Proof. destruct r; reflexivity. Qed.

Lemma strip_route_code c r : route_wf r = true -> strip_first (route_code c r) = r.
Proof. destruct r as [[|s l]|]; simpl; intro H; [discriminate | reflexivity | reflexivity]. Qed.

Lemma route_code_strip p r : first_seg r = Some p -> route_code p (strip_first r) = r.
Proof.
  destruct r as [[|s [|t l]]|]; simpl; intro H; try discriminate; injection H as ->; reflexivity.
Qed.

Lemma strip_wf r : route_wf (strip_first r) = true.
Proof. destruct r as [[|s [|t l]]|]; reflexivity. Qed.

Lemma route_code_wf c r : route_wf (route_code c r) = true.
Proof. destruct r; reflexivity. Qed.

Theorem push_pop c r : route_wf r = true ->
  first_seg (route_code c r) = Some c /\ strip_first (route_code c r) = r.
Proof. intro H. split; [apply first_seg_route_code | apply strip_route_code; exact H]. Qed.

Lemma push_all_snoc via c r : push_all (via ++ [c]) r = route_code c (push_all via r).
Proof. unfold push_all. rewrite fold_left_app. reflexivity. Qed.

Lemma push_all_wf via r : route_wf r = true -> route_wf (push_all via r) = true.
Proof.
  induction via as [|c via IH] using rev_ind; intro H; [exact H|].
  rewrite push_all_snoc. apply route_code_wf.
Qed.

Lemma set_route_same e : set_route e (e_route e) = e.
Proof. destruct e; reflexivity. Qed.
Lemma e_id_set_route e a : e_id (set_route e a) = e_id e.
Proof. reflexivity. Qed.
Lemma e_route_set_route e a : e_route (set_route e a) = a.
Proof. reflexivity. Qed.
Lemma set_route_set_route e a b : set_route (set_route e a) b = set_route e b.
Proof. reflexivity. Qed.

Lemma pop_one c e rest r :
  route_wf r = true ->
  pop_chain (c :: rest) (set_route e (route_code c r)) = pop_chain rest (set_route e r).
Proof.
  intro H. simpl. unfold route_status. simpl.
  rewrite first_seg_route_code. simpl. rewrite Nat.eqb_refl.
  rewrite strip_route_code by exact H. reflexivity.
Qed.

Theorem roundtrip_id via e : route_wf (e_route e) = true -> roundtrip via e = e.
Proof.
  intro H. unfold roundtrip, pushed. induction via as [|c via IH] using rev_ind.
  - simpl. apply set_route_same.
  - rewrite rev_app_distr, push_all_snoc. simpl rev. simpl app.
    rewrite pop_one by (apply push_all_wf; exact H). exact IH.
Qed.

Section Strings.
  Variable name : seg -> str.
  Hypothesis name_nonempty : forall s, name s <> [].
  Hypothesis name_noslash : forall s, ~ In slash (name s).

  Lemma str_head_prefix a b : ~ In slash a -> str_head (a ++ b) = a ++ str_head b.
  Proof.
    induction a as [|c a IH]; simpl; intro N; [reflexivity|].
    destruct (Nat.eqb c slash) eqn:E; [apply Nat.eqb_eq in E; exfalso; apply N; left; exact E|].
    rewrite IH; [reflexivity|]. intro H. apply N. right; exact H.
  Qed.

  Lemma str_head_app a b : ~ In slash a -> str_head (a ++ slash :: b) = a.
  Proof. intro N. rewrite (str_head_prefix a _ N). simpl. apply app_nil_r. Qed.

  Lemma str_head_noslash a : ~ In slash a -> str_head a = a.
  Proof. intro N. rewrite <- (app_nil_r a) at 1. rewrite (str_head_prefix a [] N). apply app_nil_r. Qed.

  Lemma render_segs_cons s t l : render_segs name (s :: t :: l) = name s ++ slash :: render_segs name (t :: l).
  Proof. reflexivity. Qed.

  Lemma render_segs_nonempty t l : render_segs name (t :: l) <> [].
  Proof.
    destruct l as [|u l]; [apply name_nonempty|]. rewrite render_segs_cons.
    intro H. apply app_eq_nil in H as [_ H]. discriminate.
  Qed.

  (* route_code.split("/")[0] is the first segment *)
  Theorem str_first_seg r : route_wf r = true ->
    option_map str_head (render name r) = option_map name (first_seg r).
  Proof.
    destruct r as [[|s [|t l]]|]; simpl; intro H; try discriminate; try reflexivity.
    - rewrite str_head_noslash by apply name_noslash. reflexivity.
    - f_equal. apply (str_head_app (name s)). apply name_noslash.
  Qed.

  (* routing_code + "/" + route_code prepends one segment *)
  Theorem str_push c r : route_wf r = true ->
    str_route_code (name c) (render name r) = render name (route_code c r).
  Proof. destruct r as [[|s l]|]; simpl; intro H; try discriminate; reflexivity. Qed.

  (* route_code[len(prefix) + 1:] or None removes exactly the first segment *)
  Theorem str_pop r : route_wf r = true -> str_consume (render name r) = render name (strip_first r).
  Proof.
    destruct r as [[|s [|t l]]|]; intro H; try discriminate; try reflexivity.
    - simpl. rewrite str_head_noslash by apply name_noslash.
      rewrite skipn_all2 by lia. reflexivity.
    - unfold render, strip_first, option_map, str_consume. rewrite render_segs_cons.
      pose proof (render_segs_nonempty t l) as NE.
      remember (render_segs name (t :: l)) as R eqn:ER. clear ER.
      rewrite (str_head_app (name s)) by apply name_noslash.
      replace (length (name s) + 1) with (length (name s ++ [slash])) by (rewrite app_length; reflexivity).
      replace (name s ++ slash :: R) with ((name s ++ [slash]) ++ R) by (rewrite <- app_assoc; reflexivity).
      rewrite skipn_exact. destruct R; [exfalso; apply NE; reflexivity | reflexivity].
  Qed.

  Corollary str_push_pop c r : route_wf r = true ->
    str_consume (str_route_code (name c) (render name r)) = render name r.
  Proof.
    intro H. rewrite str_push by exact H. rewrite str_pop by apply route_code_wf.
    rewrite strip_route_code by exact H. reflexivity.
  Qed.
End Strings.

Lemma get_put {K V} (eqb : K -> K -> bool) (Heq : forall a b, eqb a b = true <-> a = b) (k k' : K) (v : V) d :
  get eqb k (put eqb k' v d) = if eqb k' k then Some v else get eqb k d.
Proof.
  assert (Hsym : eqb k k' = eqb k' k).
  { apply eq_true_iff_eq. rewrite !Heq. split; congruence. }
  induction d as [|[k0 v0] r IH]; simpl.
  - rewrite Hsym. reflexivity.
  - destruct (eqb k' k0) eqn:E1; simpl.
    + apply Heq in E1. subst k0. rewrite Hsym. destruct (eqb k' k); reflexivity.
    + destruct (eqb k k0) eqn:E2; [|exact IH].
      apply Heq in E2. subst k0. rewrite E1. reflexivity.
Qed.

Lemma registered_snoc i past o : registered i (past ++ [o]) = registered i past ++ registration o.
Proof.
  unfold registered. rewrite flat_map_app. simpl.
  rewrite app_nil_r, app_assoc. reflexivity.
Qed.

Lemma in_run_snoc past o :
  in_run (past ++ [o]) = match o with Start => true | Stop => false | _ => in_run past end.
Proof. unfold in_run. rewrite fold_left_app. reflexivity. Qed.

Lemma prefix_rules_snoc past o p :
  prefix_rules (past ++ [o]) p
  = prefix_rules past p ++ match o with AddPrefix s q c _ => if Nat.eqb q p then [(s, c)] else [] | _ => [] end.
Proof.
  unfold prefix_rules. rewrite flat_map_app. simpl.
  rewrite app_nil_r. reflexivity.
Qed.

Lemma id_rules_snoc past o t :
  id_rules (past ++ [o]) t
  = id_rules past t ++ match o with AddId s u _ => if id_eqb u t then [s] else [] | _ => [] end.
Proof.
  unfold id_rules. rewrite flat_map_app. simpl.
  rewrite app_nil_r. reflexivity.
Qed.

Lemma current_snoc {A} (l : list A) x : current (l ++ [x]) = Some x.
Proof. unfold current. rewrite rev_app_distr. reflexivity. Qed.
Lemma current_none {A} (l : list A) : current l = None -> l = [].
Proof. unfold current. destruct l as [|x l]; [reflexivity|]. simpl. destruct (rev l); simpl; discriminate. Qed.
Lemma current_in {A} (l : list A) x : current l = Some x -> In x l.
Proof.
  unfold current. intro H. apply in_rev. destruct (rev l); simpl in H; [discriminate|].
  injection H as ->. left; reflexivity.
Qed.
Lemma current_app {A} (l m : list A) :
  current (l ++ m) = match current m with Some y => Some y | None => current l end.
Proof. unfold current. rewrite rev_app_distr. destruct (rev m); reflexivity. Qed.

Record Inv (i : input) (past : list op) (r : router) : Prop := {
  inv_fb : r_fallback r = fb i;
  inv_pre : forall p, get Nat.eqb p (r_prefixes r) = current (prefix_rules past p);
  inv_ids : forall t, get id_eqb t (r_ids r) = current (id_rules past t);
  inv_sinks : r_sinks r = registered i past;
  inv_run : r_in_run r = in_run past }.

Lemma inv_init i : Inv i [] (init (fb i) (fb_ss i)).
Proof.
  constructor; simpl; try reflexivity.
  unfold registered. simpl. rewrite app_nil_r. reflexivity.
Qed.

Lemma inv_no_add i past r r' o : Inv i past r -> is_add o = false ->
  r_fallback r' = r_fallback r -> r_prefixes r' = r_prefixes r -> r_ids r' = r_ids r -> r_sinks r' = r_sinks r ->
  r_in_run r' = in_run (past ++ [o]) -> Inv i (past ++ [o]) r'.
Proof.
  intros [Hfb Hpre Hids Hsinks _] Ho E1 E2 E3 E4 E5. constructor.
  - rewrite E1. exact Hfb.
  - intro p. rewrite E2, prefix_rules_snoc, Hpre. destruct o; try discriminate Ho; rewrite app_nil_r; reflexivity.
  - intro t. rewrite E3, id_rules_snoc, Hids. destruct o; try discriminate Ho; rewrite app_nil_r; reflexivity.
  - rewrite E4, registered_snoc, Hsinks. destruct o; try discriminate Ho; rewrite app_nil_r; reflexivity.
  - exact E5.
Qed.

(* an accepted add_rule: the rule tables are updated first (giving r0), then the sink is registered *)
Lemma inv_add i past r (r0 : router) o (s : sink) (ss : bool) : Inv i past r ->
  in_run (past ++ [o]) = in_run past -> registration o = (if ss then [s] else []) ->
  r_fallback r0 = r_fallback r ->
  (forall p, get Nat.eqb p (r_prefixes r0) = current (prefix_rules (past ++ [o]) p)) ->
  (forall t, get id_eqb t (r_ids r0) = current (id_rules (past ++ [o]) t)) ->
  r_sinks r0 = r_sinks r -> r_in_run r0 = r_in_run r ->
  Inv i (past ++ [o]) (fst (let (r', d) := register r0 s ss in (r', (false, d)))).
Proof.
  intros [Hfb _ _ Hsinks Hrun] Ho Hreg E1 E2 E3 E4 E5.
  assert (F : fst (let (r', d) := register r0 s ss in (r', (false, d)))
              = {| r_fallback := r_fallback r0; r_prefixes := r_prefixes r0; r_ids := r_ids r0;
                   r_sinks := r_sinks r0 ++ (if ss then [s] else []); r_in_run := r_in_run r0 |}).
  { unfold register. destruct ss, r0; simpl; rewrite ?app_nil_r; reflexivity. }
  rewrite F. constructor; simpl.
  - rewrite E1. exact Hfb.
  - exact E2.
  - exact E3.
  - rewrite E4, registered_snoc, Hsinks, Hreg. reflexivity.
  - rewrite E5, Ho. exact Hrun.
Qed.

Lemma inv_step i past r o : Inv i past r -> Inv i (past ++ [o]) (fst (step r o)).
Proof.
  intros HI. pose proof HI as [Hfb Hpre Hids Hsinks Hrun].
  destruct o as [s p c ss | s t ss | | | via e | s w ss]; simpl step.
  - apply (inv_add i past r (with_rules r (put Nat.eqb p (s, c) (r_prefixes r)) (r_ids r))); try reflexivity.
    + exact HI.
    + apply in_run_snoc.
    + intro q. simpl. rewrite (get_put Nat.eqb Nat.eqb_eq), prefix_rules_snoc, current_app, Hpre.
      destruct (Nat.eqb p q); reflexivity.
    + intro u. rewrite id_rules_snoc, app_nil_r. apply Hids.
  - apply (inv_add i past r (with_rules r (r_prefixes r) (put id_eqb t s (r_ids r)))); try reflexivity.
    + exact HI.
    + apply in_run_snoc.
    + intro q. rewrite prefix_rules_snoc, app_nil_r. apply Hpre.
    + intro u. simpl. rewrite (get_put id_eqb id_eqb_spec), id_rules_snoc, current_app, Hids.
      destruct (id_eqb t u); reflexivity.
  - apply (inv_no_add i past r); try reflexivity; [exact HI|]. rewrite in_run_snoc. reflexivity.
  - apply (inv_no_add i past r); try reflexivity; [exact HI|]. rewrite in_run_snoc. reflexivity.
  - assert (E : fst (step r (Status via e)) = r)
      by (simpl; destruct (route_status r (pushed via e)) as [[t e']|]; reflexivity).
    simpl in E. rewrite E.
    apply (inv_no_add i past r); try reflexivity; [exact HI|]. rewrite in_run_snoc. exact Hrun.
  - apply (inv_no_add i past r); try reflexivity; [exact HI|]. rewrite in_run_snoc. exact Hrun.
Qed.

Definition out_of (d : option (sink * event)) : bool * list delivery :=
  match d with Some (t, e') => (false, [(t, St e')]) | None => (true, []) end.

Definition by_id (i : input) (past : list op) (e0 : event) : option (sink * event) :=
  match current (id_rules past (e_id e0)) with
  | Some t => Some (t, e0)
  | None => match fb i with Some t => Some (t, e0) | None => None end
  end.

Definition dest (i : input) (past : list op) (e0 : event) : option (sink * event) :=
  match match first_seg (e_route e0) with Some p => current (prefix_rules past p) | None => None end with
  | Some (t, c) => Some (t, if c then set_route e0 (strip_first (e_route e0)) else e0)
  | None => by_id i past e0
  end.

Definition deliveries (i : input) (past : list op) (o : op) : bool * list delivery :=
  match o with
  | AddPrefix s _ _ ss | AddId s _ ss => (false, if ss && in_run past then [(s, StartRun)] else [])
  | Start => (false, map (fun s => (s, StartRun)) (registered i past))
  | Stop => (false, map (fun s => (s, StopRun)) (registered i past))
  | Status via e => out_of (dest i past (pushed via e))
  | AddRej _ _ _ => (true, [])
  end.

Lemma route_status_dest i past r e0 : Inv i past r -> route_status r e0 = dest i past e0.
Proof.
  intros [Hfb Hpre Hids _ _]. unfold route_status, dest, by_id. rewrite Hids, Hfb.
  destruct (first_seg (e_route e0)) as [p|]; [rewrite Hpre|]; reflexivity.
Qed.

Lemma step_deliveries i past r o : Inv i past r -> snd (step r o) = deliveries i past o.
Proof.
  intro HI. destruct o as [s p c ss | s t ss | | | via e | s w ss]; simpl.
  - unfold register. simpl. rewrite (inv_run _ _ _ HI). destruct ss, (in_run past); reflexivity.
  - unfold register. simpl. rewrite (inv_run _ _ _ HI). destruct ss, (in_run past); reflexivity.
  - rewrite (inv_sinks _ _ _ HI). reflexivity.
  - rewrite (inv_sinks _ _ _ HI). reflexivity.
  - rewrite (route_status_dest i past r _ HI). destruct (dest i past (pushed via e)) as [[t e']|]; reflexivity.
  - reflexivity.
Qed.

Lemma run_trace i : forall l past r, Inv i past r -> run r l = trace (deliveries i) past l.
Proof.
  induction l as [|o l IH]; intros past r HI; simpl; [reflexivity|].
  pose proof (step_deliveries i past r o HI) as E. pose proof (inv_step i past r o HI) as HI'.
  destruct (step r o) as [r' out]. simpl in E, HI'. rewrite E, (IH _ _ HI'). reflexivity.
Qed.

Definition expected_obs (i : input) (past : list op) (o : op) : step_obs := to_obs (n_sinks i) (deliveries i past o).

Lemma model_steps i : o_steps (model i) = trace (expected_obs i) [] (ops i).
Proof. unfold model. simpl. rewrite (run_trace i _ [] _ (inv_init i)). apply map_trace. Qed.

Lemma model_step_at i k o so :
  nth_error (ops i) k = Some o -> nth_error (o_steps (model i)) k = Some so ->
  so = expected_obs i (firstn k (ops i)) o.
Proof. rewrite model_steps. apply (trace_nth_inv (expected_obs i) []). Qed.

Lemma out_of_New_is n d :
  New_is n (match d with Some (t, e') => only t (St e') | None => nobody end) (per_sink n (snd (out_of d))).
Proof.
  apply per_sink_New_is. intros k _. destruct d as [[t e']|]; [apply calls_for_one | reflexivity].
Qed.

Lemma by_id_ok i past e0 : by_id_or_fallback i past e0 (to_obs (n_sinks i) (out_of (by_id i past e0))) = true.
Proof.
  pose proof (out_of_New_is (n_sinks i) (by_id i past e0)) as H. apply new_is_spec in H.
  unfold by_id_or_fallback, by_id in *.
  destruct (current (id_rules past (e_id e0))) as [t|]; [exact H|]. destruct (fb i); exact H.
Qed.

Lemma rel_okb_dest c p e0 : first_seg (e_route e0) = Some p ->
  rel_okb c p e0 (if c then set_route e0 (strip_first (e_route e0)) else e0) = true.
Proof.
  intro Ep. unfold rel_okb, same_but_route. destruct c.
  - rewrite set_route_set_route, set_route_same, e_route_set_route, strip_wf, (route_code_strip p _ Ep).
    rewrite (eqb_spec_refl _ event_eqb_spec), (eqb_spec_refl _ route_eqb_spec). reflexivity.
  - rewrite set_route_same, (eqb_spec_refl _ event_eqb_spec), (eqb_spec_refl _ route_eqb_spec). reflexivity.
Qed.

Lemma single {A} (x : A) l : In x l -> length l <= 1 -> l = [x].
Proof.
  destruct l as [|y [|z r]]; simpl; [intros [] | | intros _ H; lia].
  intros [->|[]] _. reflexivity.
Qed.
Lemma nonempty_in {A} (x : A) l : In x l -> exists y r, l = y :: r.
Proof. destruct l as [|y r]; [intros []|]. intros _. exists y, r. reflexivity. Qed.
Lemma NoDup_app_l {A} (a b : list A) : NoDup (a ++ b) -> NoDup a.
Proof.
  induction a as [|x a IH]; simpl; intro H; [constructor|].
  inversion H as [|? ? H1 H2]; subst. constructor; [|apply IH; exact H2].
  intro Hin. apply H1. apply in_or_app. left; exact Hin.
Qed.
Lemma NoDup_firstn_keys {A} (f : op -> list A) l k : NoDup (flat_map f l) -> NoDup (flat_map f (firstn k l)).
Proof.
  intro H. rewrite <- (firstn_skipn k l), flat_map_app in H. exact (NoDup_app_l _ _ H).
Qed.

(* Both kinds of rule at once: [sel] picks the key and what it maps to out of an add_rule call; prefix_rules and id_rules
   are the two instances (prefix_rules_eq, id_rules_eq). *)
Section Rules.
  Context {K V : Type} (eqb : K -> K -> bool) (Heqb : forall a b, eqb a b = true <-> a = b) (sel : op -> option (K * V)).

  Definition rules (past : list op) (k : K) : list V :=
    flat_map (fun o => match sel o with Some (k', v) => if eqb k' k then [v] else [] | None => [] end) past.
  Definition rule_keys (past : list op) : list K :=
    flat_map (fun o => match sel o with Some (k, _) => [k] | None => [] end) past.

  Lemma rules_In past k v : In v (rules past k) <-> exists o, In o past /\ sel o = Some (k, v).
  Proof.
    unfold rules. rewrite in_flat_map. split; intros [o [Ho H]]; exists o; (split; [exact Ho|]).
    - destruct (sel o) as [[k' v']|]; [|contradiction].
      destruct (eqb k' k) eqn:E; [|contradiction]. apply Heqb in E.
      destruct H as [->|[]]. subst k'. reflexivity.
    - rewrite H, (eqb_spec_refl _ Heqb). left. reflexivity.
  Qed.

  Lemma rules_absent l k : ~ In k (rule_keys l) -> rules l k = [].
  Proof.
    intro N. destruct (rules l k) as [|v r] eqn:E; [reflexivity|]. exfalso. apply N.
    destruct (proj1 (rules_In l k v)) as [o [Ho Hs]]; [rewrite E; left; reflexivity|].
    apply in_flat_map. exists o. split; [exact Ho|].
    rewrite Hs. left. reflexivity.
  Qed.

  Lemma rules_unique l k : NoDup (rule_keys l) -> length (rules l k) <= 1.
  Proof.
    induction l as [|o l IH]; simpl; [intros _; apply Nat.le_0_l|].
    destruct (sel o) as [[k' v]|]; simpl; [|exact IH]. intro N. inversion N as [|? ? N1 N2]; subst.
    destruct (eqb k' k) eqn:E; [|exact (IH N2)]. apply Heqb in E. subst k'. simpl.
    rewrite (rules_absent l k N1). apply Nat.le_refl.
  Qed.
  Lemma rules_split l1 l2 o k v : sel o = Some (k, v) -> rules l2 k = [] -> current (rules (l1 ++ o :: l2) k) = Some v.
  Proof.
    intros Hs H. unfold rules in *. rewrite flat_map_app.
    simpl. rewrite Hs, (eqb_spec_refl _ Heqb), H. apply current_snoc.
  Qed.
End Rules.

Definition sel_prefix (o : op) : option (seg * (sink * bool)) :=
  match o with AddPrefix s q c _ => Some (q, (s, c)) | _ => None end.
Definition sel_id (o : op) : option (option nat * sink) :=
  match o with AddId s u _ => Some (u, s) | _ => None end.

Lemma prefix_rules_eq past p : prefix_rules past p = rules Nat.eqb sel_prefix past p.
Proof. apply flat_map_ext. intros []; reflexivity. Qed.
Lemma id_rules_eq past t : id_rules past t = rules id_eqb sel_id past t.
Proof. apply flat_map_ext. intros []; reflexivity. Qed.
Lemma prefix_keys_eq l : prefix_keys l = rule_keys sel_prefix l.
Proof. apply flat_map_ext. intros []; reflexivity. Qed.
Lemma id_keys_eq l : id_keys l = rule_keys sel_id l.
Proof. apply flat_map_ext. intros []; reflexivity. Qed.

Lemma prefix_rules_to_op past s p c : In (s, c) (prefix_rules past p) -> exists ss, In (AddPrefix s p c ss) past.
Proof.
  rewrite prefix_rules_eq. intro H. apply (rules_In _ Nat.eqb_eq) in H as [o [Ho Hs]].
  destruct o as [s' q c' ss| | | | |]; try discriminate Hs. injection Hs as -> -> ->. exists ss. exact Ho.
Qed.
Lemma id_rules_to_op past s t : In s (id_rules past t) -> exists ss, In (AddId s t ss) past.
Proof.
  rewrite id_rules_eq. intro H. apply (rules_In _ id_eqb_spec) in H as [o [Ho Hs]].
  destruct o as [|s' u ss| | | |]; try discriminate Hs. injection Hs as -> ->. exists ss. exact Ho.
Qed.
Lemma prefix_rules_of_op past s p c ss : In (AddPrefix s p c ss) past -> In (s, c) (prefix_rules past p).
Proof.
  intro H. rewrite prefix_rules_eq. apply (rules_In _ Nat.eqb_eq).
  exists (AddPrefix s p c ss). split; [exact H | reflexivity].
Qed.
Lemma id_rules_of_op past s t ss : In (AddId s t ss) past -> In s (id_rules past t).
Proof.
  intro H. rewrite id_rules_eq. apply (rules_In _ id_eqb_spec).
  exists (AddId s t ss). split; [exact H | reflexivity].
Qed.
Lemma prefix_rules_unique l p : NoDup (prefix_keys l) -> length (prefix_rules l p) <= 1.
Proof. rewrite prefix_keys_eq, prefix_rules_eq. apply (rules_unique _ Nat.eqb_eq). Qed.
Lemma id_rules_unique l t : NoDup (id_keys l) -> length (id_rules l t) <= 1.
Proof. rewrite id_keys_eq, id_rules_eq. apply (rules_unique _ id_eqb_spec). Qed.

Lemma prefix_rules_sinks past p s c : In (s, c) (prefix_rules past p) -> In s (flat_map op_sinks past).
Proof.
  intro H. destruct (prefix_rules_to_op past s p c H) as [ss Hin].
  apply in_flat_map. exists (AddPrefix s p c ss). split; [exact Hin | left; reflexivity].
Qed.

Lemma id_rules_sinks past t s : In s (id_rules past t) -> In s (flat_map op_sinks past).
Proof.
  intro H. destruct (id_rules_to_op past s t H) as [ss Hin].
  apply in_flat_map. exists (AddId s t ss). split; [exact Hin | left; reflexivity].
Qed.

Lemma status_ok i past via e :
  (forall s, In s (flat_map op_sinks past) -> s < n_sinks i) ->
  status_okb i past via e (expected_obs i past (Status via e)) = true.
Proof.
  intro Hrange. unfold status_okb, expected_obs, deliveries, dest. generalize (pushed via e). intro e0.
  pose proof (by_id_ok i past e0) as Hrest.
  destruct (first_seg (e_route e0)) as [p|] eqn:Ep; [|exact Hrest].
  destruct (current (prefix_rules past p)) as [[t c]|] eqn:Er; [|exact Hrest].
  assert (Ht : t < n_sinks i) by (apply Hrange; eapply prefix_rules_sinks, current_in; exact Er).
  unfold handed. simpl. rewrite (per_sink_nth _ _ _ Ht), calls_for_one.
  unfold only at 1. rewrite Nat.eqb_refl.
  rewrite (rel_okb_dest c p e0 Ep). apply new_is_spec, per_sink_New_is. intros k _. apply calls_for_one.
Qed.

Lemma step_ok i past o :
  (forall s, In s (flat_map op_sinks past) -> s < n_sinks i) ->
  step_okb i past o (expected_obs i past o) = true.
Proof.
  intro Hrange. destruct o as [s p c ss | s t ss | | | via e | s w ss]; simpl.
  - apply new_is_spec, per_sink_New_is. intros k _.
    destruct (ss && in_run past); [apply calls_for_one | reflexivity].
  - apply new_is_spec, per_sink_New_is. intros k _.
    destruct (ss && in_run past); [apply calls_for_one | reflexivity].
  - apply new_is_spec, per_sink_New_is. intros k _. apply calls_for_map.
  - apply new_is_spec, per_sink_New_is. intros k _. apply calls_for_map.
  - apply status_ok. exact Hrange.
  - apply new_is_spec, per_sink_New_is. intros k _. reflexivity.
Qed.

Lemma nodupb_NoDup {A} (eqb : A -> A -> bool) (Heq : forall a b, eqb a b = true <-> a = b) l :
  nodupb eqb l = true -> NoDup l.
Proof.
  induction l as [|x r IH]; simpl; [constructor|].
  rewrite andb_true_iff, negb_true_iff. intros [H1 H2]. constructor; [|apply IH; exact H2].
  intro Hin. assert (existsb (eqb x) r = true); [|congruence].
  apply existsb_exists. exists x. split; [exact Hin | apply Heq; reflexivity].
Qed.

Lemma wf_is_base i : wf i -> wf_base i.
Proof. unfold wf, wfb, wf_base. rewrite andb_true_iff. intros [H _]. exact H. Qed.

Theorem wf_once i : wf i -> forall s, reg_once i s.
Proof.
  unfold wf, wfb. rewrite andb_true_iff. intros [_ H] s. apply (nodupb_NoDup _ Nat.eqb_eq) in H.
  unfold reg_once, count. apply (NoDup_count_occ Nat.eq_dec). exact H.
Qed.

Lemma status_routes_roundtrip l :
  forallb route_wf (status_routes l) = true ->
  flat_map (fun o => match o with Status via e => [e_route (roundtrip via e)] | _ => [] end) l = status_routes l.
Proof.
  unfold status_routes. induction l as [|o l IH]; simpl; [reflexivity|].
  destruct o as [| | | |via e|]; simpl; try exact IH.
  rewrite andb_true_iff. intros [H1 H2]. rewrite roundtrip_id by exact H1.
  rewrite IH by exact H2. reflexivity.
Qed.

Lemma model_steps_ok i : (forall s, In s (flat_map op_sinks (ops i)) -> s < n_sinks i) ->
  steps_okb i [] (ops i) (o_steps (model i)) = true.
Proof.
  intro Hs. rewrite model_steps. apply (steps_trace (steps_okb i) (step_okb i)); try reflexivity.
  intros l1 o l2 E. apply step_ok. intros s Hin. apply Hs.
  rewrite E, flat_map_app, in_app_iff. left. exact Hin.
Qed.

Lemma rel_okb_sound c p e d : rel_okb c p e d = true -> Rel c p e d.
Proof.
  unfold rel_okb, Rel, same_but_route. rewrite andb_true_iff, event_eqb_spec. intros [H1 H2]. split; [exact H1|].
  destruct c.
  - apply andb_true_iff in H2 as [H2 H3]. apply route_eqb_spec in H3. split; [|exact H3].
    intro E. rewrite E in H2. discriminate.
  - apply route_eqb_spec. exact H2.
Qed.

Lemma by_id_sound i past e0 so :
  by_id_or_fallback i past e0 so = true ->
  (forall s, current (id_rules past (e_id e0)) = Some s ->
     s_raised so = false /\ New_is (n_sinks i) (only s (St e0)) (s_new so))
  /\ (current (id_rules past (e_id e0)) = None ->
     match fb i with
     | Some f => s_raised so = false /\ New_is (n_sinks i) (only f (St e0)) (s_new so)
     | None => s_raised so = true /\ New_is (n_sinks i) nobody (s_new so)
     end).
Proof.
  unfold by_id_or_fallback. destruct (current (id_rules past (e_id e0))) as [y|].
  - rewrite andb_true_iff, negb_true_iff, new_is_spec. intro H. split; [|discriminate].
    intros s Es. injection Es as <-. exact H.
  - intro H. split; [discriminate|]. intros _.
    destruct (fb i); rewrite andb_true_iff, ?negb_true_iff, new_is_spec in H; exact H.
Qed.

Lemma status_okb_sound i past via e so : status_okb i past via e so = true -> Status_spec i past via e so.
Proof.
  unfold status_okb, Status_spec. generalize (pushed via e). intro e0. cbv zeta.
  destruct (first_seg (e_route e0)) as [p|] eqn:Ep.
  - destruct (current (prefix_rules past p)) as [[s c]|] eqn:Er.
    + intro H. apply andb_true_iff in H as [H1 H2]. split; [|split].
      * intros q s' c' Hq Hc. injection Hq as <-. rewrite Er in Hc. injection Hc as <- <-.
        split; [apply negb_true_iff; exact H1|].
        unfold handed in H2. simpl in H2.
        destruct (nth s (s_new so) []) as [|[| |d] [|? ?]]; try discriminate.
        apply andb_true_iff in H2 as [H2 H3]. exists d.
        split; [apply rel_okb_sound; exact H2 | apply new_is_spec; exact H3].
      * intro N. specialize (N p eq_refl). rewrite Er in N. discriminate.
      * intro N. specialize (N p eq_refl). rewrite Er in N. discriminate.
    + intro H. apply by_id_sound in H as [H1 H2]. split; [|split].
      * intros q s' c' Hq Hc. injection Hq as <-. rewrite Er in Hc. discriminate.
      * intros _. exact H1.
      * intros _. exact H2.
  - intro H. apply by_id_sound in H as [H1 H2]. split; [|split].
    + intros q s' c' Hq. discriminate.
    + intros _. exact H1.
    + intros _. exact H2.
Qed.

Lemma step_okb_sound i past o so : step_okb i past o so = true -> Step_spec i past o so.
Proof.
  destruct o as [s p c ss | s t ss | | | via e | s w ss]; simpl;
    try (rewrite andb_true_iff, negb_true_iff, new_is_spec; intros [H1 H2]; split; assumption).
  - apply status_okb_sound.
  - rewrite andb_true_iff, new_is_spec. intros [H1 H2]; split; assumption.
Qed.

Lemma dest_prefix i l1 l2 s p c ss e0 : prefix_rules l2 p = [] -> first_seg (e_route e0) = Some p ->
  dest i (l1 ++ AddPrefix s p c ss :: l2) e0 = Some (s, if c then set_route e0 (strip_first (e_route e0)) else e0).
Proof.
  intros Hl2 Hp. unfold dest. rewrite Hp. rewrite prefix_rules_eq in *.
  rewrite (rules_split _ Nat.eqb_eq sel_prefix l1 l2 (AddPrefix s p c ss) p (s, c) eq_refl Hl2). reflexivity.
Qed.

Lemma dest_no_prefix i past e0 :
  (forall s p c ss, In (AddPrefix s p c ss) past -> first_seg (e_route e0) <> Some p) -> dest i past e0 = by_id i past e0.
Proof.
  intro N. unfold dest. destruct (first_seg (e_route e0)) as [p|] eqn:Ep; [|reflexivity].
  destruct (current (prefix_rules past p)) as [[s c]|] eqn:E; [|reflexivity]. exfalso.
  destruct (prefix_rules_to_op past s p c) as [ss Hin]; [apply current_in; exact E|].
  exact (N s p c ss Hin eq_refl).
Qed.

Lemma by_id_rule i l1 l2 s ss e0 : id_rules l2 (e_id e0) = [] ->
  by_id i (l1 ++ AddId s (e_id e0) ss :: l2) e0 = Some (s, e0).
Proof.
  intro Hl2. unfold by_id. rewrite id_rules_eq in *.
  rewrite (rules_split _ id_eqb_spec sel_id l1 l2 (AddId s (e_id e0) ss) (e_id e0) s eq_refl Hl2). reflexivity.
Qed.

Lemma by_id_fallback i past e0 : (forall s ss, ~ In (AddId s (e_id e0) ss) past) ->
  by_id i past e0 = match fb i with Some f => Some (f, e0) | None => None end.
Proof.
  intro N. unfold by_id. destruct (current (id_rules past (e_id e0))) as [s|] eqn:E; [|reflexivity]. exfalso.
  destruct (id_rules_to_op past s (e_id e0)) as [ss Hin]; [apply current_in; exact E|].
  exact (N s ss Hin).
Qed.

Lemma model_status i k via e so :
  nth_error (ops i) k = Some (Status via e) -> nth_error (o_steps (model i)) k = Some so ->
  match dest i (firstn k (ops i)) (pushed via e) with
  | Some (t, e') => s_raised so = false /\ New_is (n_sinks i) (only t (St e')) (s_new so)
  | None => s_raised so = true /\ New_is (n_sinks i) nobody (s_new so)
  end.
Proof.
  intros Ho Hso. rewrite (model_step_at i k _ so Ho Hso). unfold expected_obs. simpl deliveries.
  pose proof (out_of_New_is (n_sinks i) (dest i (firstn k (ops i)) (pushed via e))) as H.
  destruct (dest i (firstn k (ops i)) (pushed via e)) as [[t e']|]; split; try reflexivity; exact H.
Qed.

Lemma count_app s a b : count s (a ++ b) = count s a + count s b.
Proof. unfold count. apply count_occ_app. Qed.

Definition regb (s : sink) (o : op) : bool :=
  match o with AddPrefix s' _ _ ss | AddId s' _ ss => Nat.eqb s' s && ss | _ => false end.

Lemma count_registration s o : count s (registration o) = if regb s o then 1 else 0.
Proof.
  assert (H : forall s', count s [s'] = if Nat.eqb s' s then 1 else 0).
  { intro s'. simpl. destruct (Nat.eq_dec s' s) as [->|N]; [rewrite Nat.eqb_refl; reflexivity|].
    apply Nat.eqb_neq in N. rewrite N. reflexivity. }
  destruct o as [s' p c ss|s' t ss| | | |]; try reflexivity.
  - destruct ss; unfold regb; cbn [registration]; [rewrite andb_true_r; apply H | rewrite andb_false_r; reflexivity].
  - destruct ss; unfold regb; cbn [registration]; [rewrite andb_true_r; apply H | rewrite andb_false_r; reflexivity].
Qed.

Lemma regb_In s o : In s (registration o) <-> regb s o = true.
Proof.
  pose proof (count_registration s o) as H. unfold count in H.
  rewrite (count_occ_In Nat.eq_dec). destruct (regb s o); rewrite H; split; try discriminate; auto; lia.
Qed.

(* at once when registered during a run, then one per registration at every startTestRun / stopTestRun *)
Lemma ss_deliveries i past o s :
  filter is_start_stop (calls_for (snd (deliveries i past o)) s)
  = (if regb s o && in_run past then [StartRun] else [])
    ++ flat_map (fun c => repeat c (count s (registered i past))) (ss_of_op o).
Proof.
  (* the `++ []` in Hadd and Hrep is what simpl leaves of flat_map ... (ss_of_op o) for a call with no
     start/stop entry (add_rule) or with one (startTestRun / stopTestRun) *)
  assert (Hadd : forall s' ss,
            filter is_start_stop (calls_for (if ss && in_run past then [(s', StartRun)] else []) s)
            = (if Nat.eqb s' s && ss && in_run past then [StartRun] else []) ++ []).
  { intros s' ss. rewrite <- andb_assoc. destruct (ss && in_run past); [|rewrite andb_false_r; reflexivity].
    rewrite calls_for_one, andb_true_r. unfold only.
    rewrite (Nat.eqb_sym s s'). destruct (Nat.eqb s' s); reflexivity. }
  assert (Hrep : forall c n, is_start_stop c = true -> filter is_start_stop (repeat c n) = repeat c n ++ []).
  { intros c n H. rewrite app_nil_r. induction n as [|n IH]; simpl; [reflexivity|].
    rewrite H, IH. reflexivity. }
  destruct o as [s' p c ss | s' t ss | | | via e | s' w ss]; simpl.
  - apply Hadd.
  - apply Hadd.
  - rewrite calls_for_map. apply Hrep. reflexivity.
  - rewrite calls_for_map. apply Hrep. reflexivity.
  - destruct (dest i past (pushed via e)) as [[t e']|]; [|reflexivity].
    simpl. rewrite calls_for_one. unfold only. destruct (Nat.eqb s t); reflexivity.
  - reflexivity.
Qed.

Lemma model_ss_at i k o so s :
  nth_error (ops i) k = Some o -> nth_error (o_steps (model i)) k = Some so -> s < n_sinks i ->
  filter is_start_stop (nth s (s_new so) [])
  = (if regb s o && in_run (firstn k (ops i)) then [StartRun] else [])
    ++ flat_map (fun c => repeat c (count s (registered i (firstn k (ops i))))) (ss_of_op o).
Proof.
  intros Ho Hso Hs. rewrite (model_step_at i k o so Ho Hso). unfold expected_obs. simpl s_new.
  rewrite per_sink_nth by exact Hs. apply ss_deliveries.
Qed.

Theorem start_stop_count i : wf_base i -> forall k o so s,
  nth_error (ops i) k = Some o -> nth_error (o_steps (model i)) k = Some so -> s < n_sinks i ->
  let past := firstn k (ops i) in
  filter is_start_stop (nth s (s_new so) []) =
    match o with
    | Start => repeat StartRun (count s (registered i past))
    | Stop => repeat StopRun (count s (registered i past))
    | AddPrefix s' _ _ ss | AddId s' _ ss => if Nat.eqb s' s && ss && in_run past then [StartRun] else []
    | Status _ _ => []
    | AddRej _ _ _ => []
    end.
Proof.
  intros _ k o so s Ho Hso Hs past. rewrite (model_ss_at i k o so s Ho Hso Hs). fold past.
  destruct o; simpl; rewrite ?app_nil_r; reflexivity.
Qed.

Lemma count_memb {A} s l (c : A) : count s l <= 1 -> repeat c (count s l) = if memb s l then [c] else [].
Proof.
  intro H. destruct (memb s l) eqn:M.
  - apply existsb_exists in M as [x [Hx E]]. apply Nat.eqb_eq in E. subst x.
    apply (count_occ_In Nat.eq_dec) in Hx. unfold count in *. replace (count_occ Nat.eq_dec l s) with 1 by lia. reflexivity.
  - replace (count s l) with 0; [reflexivity|]. symmetry. apply (count_occ_not_In Nat.eq_dec). intro Hx.
    assert (memb s l = true); [|congruence].
    apply existsb_exists. exists s. split; [exact Hx | apply Nat.eqb_refl].
Qed.

Lemma registered_app_count i s past l :
  count s (registered i past) <= count s (registered i (past ++ l)).
Proof. unfold registered. rewrite flat_map_app, !count_app. lia. Qed.

Theorem start_stop i : wf i -> forall k o so s,
  nth_error (ops i) k = Some o -> nth_error (o_steps (model i)) k = Some so -> s < n_sinks i ->
  let past := firstn k (ops i) in
  filter is_start_stop (nth s (s_new so) []) =
    match o with
    | Start => if memb s (registered i past) then [StartRun] else []
    | Stop => if memb s (registered i past) then [StopRun] else []
    | AddPrefix s' _ _ ss | AddId s' _ ss => if Nat.eqb s' s && ss && in_run past then [StartRun] else []
    | Status _ _ => []
    | AddRej _ _ _ => []
    end.
Proof.
  intros Hwf k o so s Ho Hso Hs past.
  rewrite (start_stop_count i (wf_is_base i Hwf) k o so s Ho Hso Hs). fold past.
  assert (Hc : count s (registered i past) <= 1).
  { apply Nat.le_trans with (count s (registered i (ops i))); [|apply (wf_once i Hwf)].
    rewrite <- (firstn_skipn k (ops i)). apply registered_app_count. }
  destruct o; try reflexivity; apply count_memb; exact Hc.
Qed.

Lemma count_registration_le s l : count s (flat_map registration l) <= count s (flat_map op_sinks l).
Proof.
  induction l as [|o l IH]; simpl; [lia|]. rewrite !count_app.
  assert (count s (registration o) <= count s (op_sinks o)); [|lia].
  destruct o as [s' p c [|]|s' t [|]| | | |]; simpl; try lia; destruct (Nat.eq_dec s' s); lia.
Qed.

Theorem distinct_once i : wf_distinct i -> forall s, reg_once i s.
Proof.
  intros Hd s. unfold wf_distinct, wf_distinctb in Hd. apply andb_true_iff in Hd as [Hd _]. apply andb_true_iff in Hd as [Hd _].
  apply (nodupb_NoDup _ Nat.eqb_eq) in Hd. unfold reg_once.
  apply Nat.le_trans with (count s (all_sinks i)); [|apply (NoDup_count_occ Nat.eq_dec); exact Hd].
  unfold registered, all_sinks. rewrite !count_app.
  pose proof (count_registration_le s (ops i)).
  assert (count s match fb i with Some s0 => if fb_ss i then [s0] else [] | None => [] end
          <= count s match fb i with Some s0 => [s0] | None => [] end); [|lia].
  destruct (fb i); [destruct (fb_ss i)|]; simpl; lia.
Qed.

Lemma registered_mono i j k s : j <= k ->
  memb s (registered i (firstn j (ops i))) = true -> memb s (registered i (firstn k (ops i))) = true.
Proof.
  intros Hjk H. rewrite <- (firstn_skipn j (firstn k (ops i))), firstn_firstn, (Nat.min_l _ _ Hjk).
  unfold memb, registered in *. rewrite flat_map_app, !existsb_app. rewrite existsb_app in H.
  rewrite orb_assoc, H. reflexivity.
Qed.

Lemma registered_at i k s o : nth_error (ops i) k = Some o -> In s (registration o) ->
  memb s (registered i (firstn (S k) (ops i))) = true.
Proof.
  intros Ho Hin. apply nth_error_split in Ho as (l1 & l2 & E & <-).
  rewrite E. replace (S (length l1)) with (length (l1 ++ [o])) by (rewrite app_length, Nat.add_1_r; reflexivity).
  replace (l1 ++ o :: l2) with ((l1 ++ [o]) ++ l2) by (rewrite <- app_assoc; reflexivity).
  rewrite firstn_exact, registered_snoc. unfold memb.
  rewrite existsb_app. apply orb_true_iff. right.
  apply existsb_exists. exists s. split; [exact Hin | apply Nat.eqb_refl].
Qed.

Lemma count_le1_split s (a b : list sink) : count s (a ++ b) <= 1 -> count s a = 1 -> count s b = 0.
Proof. rewrite count_app. lia. Qed.

Lemma count_registered i s l :
  count s (registered i l) = count s (registered i []) + count s (flat_map registration l).
Proof. unfold registered. simpl. rewrite app_nil_r. apply count_app. Qed.

Lemma ss_log_app s a b : ss_log s (a ++ b) = ss_log s a ++ ss_log s b.
Proof. apply flat_map_app. Qed.

Lemma ss_log_expected_obs i s past o r : s < n_sinks i ->
  ss_log s (expected_obs i past o :: r)
  = ((if regb s o && in_run past then [StartRun] else [])
     ++ flat_map (fun c => repeat c (count s (registered i past))) (ss_of_op o)) ++ ss_log s r.
Proof.
  intro Hs. unfold ss_log, expected_obs. simpl.
  rewrite per_sink_nth by exact Hs. rewrite ss_deliveries. reflexivity.
Qed.

Lemma ss_log_const i s c : s < n_sinks i -> forall l past,
  Forall (fun o => regb s o = false) l -> count s (registered i past) = c ->
  ss_log s (trace (expected_obs i) past l) = flat_map (fun o => flat_map (fun x => repeat x c) (ss_of_op o)) l.
Proof.
  intros Hs. induction l as [|o l IH]; intros past Hl Hc; [reflexivity|].
  inversion Hl as [|? ? Ho Hl']; subst. cbn [trace flat_map].
  rewrite (ss_log_expected_obs i s past o _ Hs), Ho. f_equal.
  apply IH; [exact Hl'|]. rewrite registered_snoc, count_app, count_registration, Ho. apply Nat.add_0_r.
Qed.

Lemma no_registration s l : count s (flat_map registration l) = 0 -> Forall (fun o => regb s o = false) l.
Proof.
  induction l as [|o l IH]; simpl; intro H; constructor.
  - rewrite count_app, count_registration in H. destruct (regb s o); [discriminate | reflexivity].
  - apply IH. rewrite count_app in H. lia.
Qed.

Lemma ss_of_op_once l : flat_map (fun o => flat_map (fun x : call => repeat x 1) (ss_of_op o)) l = flat_map ss_of_op l.
Proof.
  apply flat_map_ext. intro o. destruct o; reflexivity.
Qed.

Lemma ss_of_op_never l : flat_map (fun o => flat_map (fun x : call => repeat x 0) (ss_of_op o)) l = [].
Proof. induction l as [|o l IH]; [reflexivity|]. destruct o; exact IH. Qed.

Theorem start_stop_log i : wf i -> forall s, s < n_sinks i ->
  let log := ss_log s (o_steps (model i)) in
  (count s (registered i (ops i)) = 0 -> log = [])
  /\ (fb i = Some s -> fb_ss i = true -> log = flat_map ss_of_op (ops i))
  /\ (forall k o, nth_error (ops i) k = Some o -> In s (registration o) ->
        log = (if in_run (firstn k (ops i)) then [StartRun] else []) ++ flat_map ss_of_op (skipn (S k) (ops i))).
Proof.
  intros Hwf s Hs log. pose proof (wf_once i Hwf s) as Hc. unfold reg_once in Hc. rewrite count_registered in Hc.
  subst log. rewrite model_steps. split; [|split].
  - intro H0. rewrite count_registered in H0.
    rewrite (ss_log_const i s 0 Hs); [apply ss_of_op_never | apply no_registration; lia | lia].
  - intros Hf Hss.
    assert (H1 : count s (registered i []) = 1).
    { unfold registered. rewrite Hf, Hss. simpl.
      destruct (Nat.eq_dec s s); [reflexivity | contradiction]. }
    rewrite (ss_log_const i s 1 Hs); [apply ss_of_op_once | apply no_registration; lia | exact H1].
  - intros k o Ho Hin. apply regb_In in Hin.
    apply nth_error_split in Ho as (pre & post & E & <-).
    rewrite E in *. rewrite firstn_exact.
    rewrite flat_map_app in Hc. simpl in Hc. rewrite !count_app, count_registration, Hin in Hc.
    assert (Hpre : count s (registered i pre) = 0) by (rewrite count_registered; lia).
    assert (Npre : Forall (fun o => regb s o = false) pre) by (apply no_registration; lia).
    assert (Npost : Forall (fun o => regb s o = false) post) by (apply no_registration; lia).
    rewrite trace_app, ss_log_app.
    rewrite (ss_log_const i s 0 Hs pre [] Npre), ss_of_op_never by lia.
    change (trace (expected_obs i) ([] ++ pre) (o :: post)) with (expected_obs i pre o :: trace (expected_obs i) (pre ++ [o]) post).
    rewrite (ss_log_expected_obs i s pre o _ Hs), Hin, Hpre.
    rewrite (ss_log_const i s 1 Hs post _ Npost), ss_of_op_once.
    + replace (flat_map (fun c : call => repeat c 0) (ss_of_op o)) with (@nil call) by (destruct o; reflexivity).
      replace (pre ++ o :: post) with ((pre ++ [o]) ++ post) by (rewrite <- app_assoc; reflexivity).
      replace (S (length pre)) with (length (pre ++ [o])) by (rewrite app_length, Nat.add_1_r; reflexivity).
      rewrite skipn_exact, app_nil_r. reflexivity.
    + rewrite registered_snoc, count_app, count_registration, Hin, Hpre. reflexivity.
Qed.

Lemma rejected_step r s w ss : step r (AddRej s w ss) = (r, (true, [])).
Proof. reflexivity. Qed.

Lemma run_app r l1 l2 : run r (l1 ++ l2) = run r l1 ++ run (apply_adds r l1) l2.
Proof.
  revert r. induction l1 as [|o l1 IH]; intro r; simpl; [reflexivity|].
  destruct (step r o) as [r' out]. simpl. rewrite IH. reflexivity.
Qed.

Lemma run_length r l : length (run r l) = length l.
Proof.
  revert r. induction l as [|o l IH]; intro r; simpl; [reflexivity|].
  destruct (step r o) as [r' out]. simpl. rewrite IH. reflexivity.
Qed.

Lemma per_sink_nil n : per_sink n [] = repeat [] n.
Proof.
  unfold per_sink. generalize 0. induction n as [|n IH]; intro a; simpl; [reflexivity|].
  rewrite IH. reflexivity.
Qed.

Lemma run_rejected n r l1 s w ss l2 :
  map (to_obs n) (run r (l1 ++ AddRej s w ss :: l2))
  = firstn (length l1) (map (to_obs n) (run r (l1 ++ l2)))
    ++ {| s_raised := true; s_new := repeat [] n |} :: skipn (length l1) (map (to_obs n) (run r (l1 ++ l2))).
Proof.
  rewrite !run_app, !map_app. simpl.
  replace (length l1) with (length (map (to_obs n) (run r l1))) by (rewrite map_length; apply run_length).
  rewrite firstn_exact, skipn_exact. unfold to_obs at 2. simpl.
  rewrite per_sink_nil. reflexivity.
Qed.

Lemma step_add_sinks r o : is_add o = true ->
  exists ext, r_sinks (fst (step r o)) = r_sinks r ++ ext
              /\ r_in_run (fst (step r o)) = r_in_run r
              /\ (r_in_run r = false -> snd (step r o) = (false, [])).
Proof.
  destruct o as [s p c ss|s t ss| | | |]; simpl; try discriminate; intros _; unfold register;
    destruct ss; simpl.
  - exists [s]. repeat split. intros ->. reflexivity.
  - exists []. rewrite app_nil_r. repeat split.
  - exists [s]. repeat split. intros ->. reflexivity.
  - exists []. rewrite app_nil_r. repeat split.
Qed.

Lemma apply_adds_sinks adds : forall r, forallb is_add adds = true -> r_in_run r = false ->
  exists ext, r_sinks (apply_adds r adds) = r_sinks r ++ ext
              /\ r_in_run (apply_adds r adds) = false
              /\ Forall (fun out => out = (false, [])) (run r adds).
Proof.
  induction adds as [|o adds IH]; intros r Ha Hr.
  - exists []. simpl. rewrite app_nil_r. repeat split; [exact Hr|constructor].
  - cbn [forallb] in Ha. apply andb_true_iff in Ha. destruct Ha as [Ho Ha].
    destruct (step_add_sinks r o Ho) as [e1 [S1 [R1 O1]]].
    unfold apply_adds. cbn [fold_left run]. fold (apply_adds (fst (step r o)) adds).
    destruct (step r o) as [r1 out1] eqn:E. cbn [fst snd] in *.
    assert (Hr1 : r_in_run r1 = false) by (rewrite R1; exact Hr).
    destruct (IH r1 Ha Hr1) as [e2 [S2 [R2 O2]]].
    exists (e1 ++ e2). rewrite S2, S1, app_assoc. repeat split; [exact R2|].
    constructor; [apply O1; exact Hr|exact O2].
Qed.

Theorem reentrant_start_is_adds_then_start r k adds :
  r_in_run r = false -> k < length (r_sinks r) -> forallb is_add adds = true ->
  Forall (fun out => out = (false, [])) (run r adds)
  /\ start_reentrant r k adds = step (apply_adds r adds) Start.
Proof.
  intros Hr Hk Ha. destruct (apply_adds_sinks adds r Ha Hr) as [ext [HS [R O]]].
  split; [exact O|]. unfold start_reentrant.
  cbn [step]. f_equal. f_equal.
  rewrite <- map_app. f_equal.
  rewrite HS. rewrite skipn_app.
  replace (S k - length (r_sinks r)) with 0 by lia. cbn [skipn].
  rewrite app_assoc. rewrite firstn_skipn. reflexivity.
Qed.

Corollary reentrant_start_once r k adds s :
  r_in_run r = false -> k < length (r_sinks r) -> forallb is_add adds = true ->
  count_occ Nat.eq_dec (map fst (snd (snd (start_reentrant r k adds)))) s
  = count_occ Nat.eq_dec (r_sinks (apply_adds r adds)) s.
Proof.
  intros Hr Hk Ha. destruct (reentrant_start_is_adds_then_start r k adds Hr Hk Ha) as [_ E].
  rewrite E. simpl. rewrite map_map.
  simpl. rewrite map_id. reflexivity.
Qed.
