(* Suites (C19): iterate_tests and filter_by_ids through the position paths of the leaves, sorted_tests as a
   sort of the flattened members, and the --load-list file (readlines + strip) against "a line is one id". *)
From Coq Require Import Permutation Sorted.
From TT Require Import Lib.Base Lib.EqbFacts Lib.Count Lib.ListFacts Lib.Sort Model.Suites Spec.C19 Corr.C19.

Section node_ind'.
  Variable P : node -> Prop.
  Hypothesis HC : forall i, P (Case i).
  Hypothesis HP : forall l, Forall P l -> P (Plain l).
  Hypothesis HU : forall s f l, Forall P l -> P (Custom s f l).
  Fixpoint node_ind' (n : node) : P n :=
    let fix go (l : list node) : Forall P l :=
      match l with [] => Forall_nil _ | x :: r => Forall_cons x (node_ind' x) (go r) end in
    match n with Case i => HC i | Plain l => HP l (go l) | Custom s f l => HU s f l (go l) end.
End node_ind'.

Lemma go_paths_snd l : Forall (fun n => forall pre, map snd (paths_from pre n) = iterate n) l ->
  forall pre k, map snd (go_paths paths_from pre k l) = flat_map iterate l.
Proof.
  induction 1 as [|c r Hc _ IH]; intros pre k; simpl; [reflexivity|].
  rewrite map_app, Hc, IH. reflexivity.
Qed.

Lemma paths_from_snd n : forall pre, map snd (paths_from pre n) = iterate n.
Proof.
  induction n as [i | l IH | s f l IH] using node_ind'; intro pre; simpl;
    [reflexivity | apply go_paths_snd; exact IH | apply go_paths_snd; exact IH].
Qed.

Lemma iterate_leaves n : iterate n = leaves n.
Proof. unfold leaves, paths. symmetry. apply paths_from_snd. Qed.

Lemma go_paths_filter keep l :
  Forall (fun n => forall pre, paths_from pre (filter_ids keep n)
                               = filter (fun p => keep (snd p)) (paths_from pre n)) l ->
  forall pre k, go_paths paths_from pre k (map (filter_ids keep) l)
                = filter (fun p => keep (snd p)) (go_paths paths_from pre k l).
Proof.
  induction 1 as [|c r Hc _ IH]; intros pre k; simpl; [reflexivity|].
  rewrite filter_app, Hc, IH. reflexivity.
Qed.

Lemma paths_from_filter keep n : forall pre,
  paths_from pre (filter_ids keep n) = filter (fun p => keep (snd p)) (paths_from pre n).
Proof.
  induction n as [i | l IH | s f l IH] using node_ind'; intro pre; simpl.
  - destruct (keep i); reflexivity.
  - apply go_paths_filter; exact IH.
  - apply go_paths_filter; exact IH.
Qed.

Theorem filter_paths keep n :
  paths (filter_ids keep n) = filter (fun p => keep (snd p)) (paths n).
Proof. apply paths_from_filter. Qed.

Corollary filter_iterate keep n : iterate (filter_ids keep n) = filter keep (iterate n).
Proof.
  rewrite !iterate_leaves. unfold leaves. rewrite filter_paths.
  generalize (paths n). intro l. induction l as [|[p i] l IH]; simpl; [reflexivity|].
  destruct (keep i); simpl; congruence.
Qed.

Lemma mem_In i l : mem i l = true <-> In i l.
Proof.
  induction l as [|x r IH]; simpl; [split; [discriminate|tauto]|].
  rewrite orb_true_iff, IH, Nat.eqb_eq. split; intros [H|H]; auto.
Qed.

Lemma has_dup_NoDup l : has_dup l = false <-> NoDup l.
Proof.
  induction l as [|x r IH]; simpl; [split; [constructor|reflexivity]|].
  rewrite orb_false_iff, IH. split.
  - intros [H1 H2]. constructor; [|exact H2]. intro Hin. apply mem_In in Hin. congruence.
  - intro H; inversion H; subst. split; [|assumption].
    destruct (mem x r) eqn:E; [apply mem_In in E; contradiction|reflexivity].
Qed.

Lemma sorted_tests_ok u n r : sorted_tests u n = Ok r -> r = Plain (map snd (sort_items (flatten u n))).
Proof. unfold sorted_tests. destruct (has_dup _); [discriminate|]. intro H. injection H as <-. reflexivity. Qed.

Lemma key_leb_total a b : key_leb a b = true \/ key_leb b a = true.
Proof.
  destruct a as [x|], b as [y|]; simpl; auto.
  destruct (Nat.leb_spec x y) as [|L]; [left; reflexivity|right]. apply Nat.leb_le, Nat.lt_le_incl, L.
Qed.

Lemma flat_map_flat_map {A B C} (f : A -> list B) (g : B -> list C) l :
  flat_map g (flat_map f l) = flat_map (fun x => flat_map g (f x)) l.
Proof. induction l as [|x l IH]; simpl; [reflexivity|]. rewrite flat_map_app, IH. reflexivity. Qed.

Lemma flat_map_map {A B C} (f : A -> B) (g : B -> list C) l :
  flat_map g (map f l) = flat_map (fun x => g (f x)) l.
Proof. induction l; simpl; congruence. Qed.

Lemma flat_map_ext_Forall {A B} (f g : A -> list B) l :
  Forall (fun x => f x = g x) l -> flat_map f l = flat_map g l.
Proof. exact (ListFacts.flat_map_ext_Forall f g l). Qed.

Lemma perm_flat_map_Forall {A B} (f g : A -> list B) l :
  Forall (fun x => Permutation (f x) (g x)) l -> Permutation (flat_map f l) (flat_map g l).
Proof. induction 1; simpl; [constructor|]. apply Permutation_app; assumption. Qed.

Definition item_ids (it : item) : list id := iterate (snd it).

Lemma sort_items_ids l : Permutation (flat_map iterate (map snd (sort_items l))) (flat_map item_ids l).
Proof. rewrite flat_map_map. apply Permutation_flat_map. symmetry. apply isort_perm. Qed.

Lemma flatten_top_ids n : Permutation (flat_map item_ids (flatten_top n)) (iterate n).
Proof.
  induction n as [i | l IH | s f l IH] using node_ind'.
  - reflexivity.
  - simpl. rewrite flat_map_flat_map. apply perm_flat_map_Forall. exact IH.
  - simpl. rewrite app_nil_r. unfold item_ids; simpl. destruct s; [|reflexivity].
    simpl. etransitivity; [apply sort_items_ids|].
    rewrite flat_map_flat_map. apply perm_flat_map_Forall. exact IH.
Qed.

Lemma flatten_ids u n : Permutation (flat_map item_ids (flatten u n)) (iterate n).
Proof.
  destruct n as [i|l|s f l]; try apply flatten_top_ids.
  unfold flatten. destruct u; [|apply flatten_top_ids].
  simpl. rewrite flat_map_flat_map. apply perm_flat_map_Forall.
  apply Forall_forall. intros x _. apply flatten_top_ids.
Qed.

(* the top an item stands for when read by itself (a custom suite that sorted itself: with its sorted ids) *)
Definition top_of (it : item) : top :=
  match snd it with
  | Case i => {| t_key := fst it; t_case := true; t_sortable := false; t_ids := [i] |}
  | Plain l => {| t_key := fst it; t_case := false; t_sortable := false; t_ids := flat_map iterate l |}
  | Custom s f l => {| t_key := fst it; t_case := false; t_sortable := s; t_ids := flat_map iterate l |}
  end.

(* The sorted clause: the statement sorts [tops], the code the items of [flatten]; the lists are related
   elementwise by [top_rel] (same key and kind; ids equal, or permuted where the suite sorts itself), which
   preserves the sort key, so the sorted lists are related (isort_rel) and related pairs pass member_ok *)
Definition top_rel (t : top) (it : item) : Prop :=
  t_key t = fst it /\ t_case t = fst (obs_member (snd it))
  /\ (if t_sortable t then Permutation (t_ids t) (iterate (snd it)) else t_ids t = iterate (snd it)).

Lemma Forall2_flat_map {A B C} (R : B -> C -> Prop) (f : A -> list B) (g : A -> list C) l :
  Forall (fun x => Forall2 R (f x) (g x)) l -> Forall2 R (flat_map f l) (flat_map g l).
Proof. induction 1; simpl; [constructor|]. apply Forall2_app; assumption. Qed.

Lemma tops_flatten_top n : Forall2 top_rel (tops n) (flatten_top n).
Proof.
  induction n as [i | l IH | s f l IH] using node_ind'.
  - simpl. constructor; [|constructor]. repeat split.
  - simpl. apply Forall2_flat_map. exact IH.
  - simpl. constructor; [|constructor]. unfold top_rel; simpl. split; [reflexivity|].
    destruct s; simpl; (split; [reflexivity|]); [|reflexivity].
    symmetry. pose proof (flatten_top_ids (Custom true f l)) as H. simpl in H.
    rewrite app_nil_r in H. exact H.
Qed.

Lemma tops_flatten u n : Forall2 top_rel (tops_of u n) (flatten u n).
Proof.
  destruct n as [i|l|s f l]; try apply tops_flatten_top.
  unfold tops_of, flatten. destruct u; [|apply tops_flatten_top].
  apply Forall2_flat_map. apply Forall_forall. intros x _. apply tops_flatten_top.
Qed.

Lemma perm_eqb_of_perm a b : Permutation a b -> perm_eqb a b = true.
Proof. apply (count_occ_same_perm Nat.eq_dec). Qed.

Lemma perm_of_perm_eqb a b : perm_eqb a b = true -> Permutation a b.
Proof. apply (count_occ_same_perm Nat.eq_dec). Qed.

Lemma member_ok_of_rel t it : top_rel t it -> member_ok t (obs_member (snd it)) = true.
Proof.
  intros (Hk & Hc & Hi). unfold member_ok. rewrite Hc. rewrite Bool.eqb_reflx. simpl.
  destruct (t_sortable t).
  - apply perm_eqb_of_perm. exact Hi.
  - rewrite Hi. apply (eqb_spec_refl _ nats_eqb_spec).
Qed.

Theorem model_sorted_ok i : sorted_okb i (o_sorted (model i)) = true.
Proof.
  unfold sorted_okb, model; simpl. rewrite <- iterate_leaves. unfold sorted_tests.
  destruct (has_dup (iterate (tree i))); [reflexivity|].
  apply forall2b_complete. rewrite map_map. apply Forall2_map_r.
  eapply Forall2_impl; [apply member_ok_of_rel|].
  apply (isort_rel top_rel top_leb item_leb).
  - intros a a' b b' (Hk & _) (Hk' & _). unfold top_leb, item_leb. rewrite Hk, Hk'. reflexivity.
  - apply tops_flatten.
Qed.

Lemma sorted_okb_sound i o : sorted_okb i o = true -> Sorted_spec i o.
Proof.
  unfold sorted_okb, Sorted_spec. destruct (has_dup (leaves (tree i))).
  - destruct o as [ms|e]; simpl; [discriminate|]. destruct e; simpl; congruence.
  - destruct o as [ms|e]; [|discriminate]. intro H.
    exists ms, (isort top_leb (tops_of (unpack i) (tree i))). split; [reflexivity|].
    split; [apply isort_perm|]. split; [apply (isort_sorted top_leb (fun a b => key_leb_total _ _))|].
    apply (forall2b_sound _ _ (fun _ _ H => H)) in H. eapply Forall2_impl; [|exact H].
    intros t m Hm. unfold member_ok in Hm. apply andb_true_iff in Hm as [H1 H2].
    split; [apply bool_eqb_spec; exact H1|].
    destruct (t_sortable t); [apply perm_of_perm_eqb; exact H2|].
    apply nats_eqb_spec, H2.
Qed.

Lemma blank_is_ws b : blank b = is_ws b.
Proof. unfold blank, is_ws. simpl. rewrite orb_false_r, !orb_assoc. reflexivity. Qed.

Lemma skip_blank_lstrip l : skip_blank l = lstrip l.
Proof. induction l as [|b r IH]; simpl; [reflexivity|]. rewrite blank_is_ws, IH. reflexivity. Qed.

Lemma forallb_blank_ws l : forallb blank l = forallb is_ws l.
Proof. induction l as [|b r IH]; simpl; [reflexivity|]. rewrite blank_is_ws, IH. reflexivity. Qed.

Lemma lstrip_split l : exists w, l = w ++ lstrip l /\ forallb is_ws w = true.
Proof.
  induction l as [|b r (w & E & W)]; simpl.
  - exists []. split; reflexivity.
  - destruct (is_ws b) eqn:B.
    + exists (b :: w). simpl. rewrite B, W. split; [f_equal; exact E | reflexivity].
    + exists []. split; reflexivity.
Qed.

Lemma lstrip_ws_app w l : forallb is_ws w = true -> lstrip (w ++ l) = lstrip l.
Proof.
  induction w as [|b r IH]; simpl; [reflexivity|]. intro H. apply andb_true_iff in H as [B W].
  rewrite B. apply IH; exact W.
Qed.

Lemma lstrip_head b l : is_ws b = false -> lstrip (b :: l) = b :: l.
Proof. intro B. simpl. rewrite B. reflexivity. Qed.

Lemma lstrip_all_ws l : forallb is_ws l = true -> lstrip l = [].
Proof. intro H. rewrite <- (app_nil_r l). rewrite lstrip_ws_app; [reflexivity | exact H]. Qed.

Definition ends_nonblank (nm : bytes) : bool :=
  match rev nm with [] => false | b :: _ => negb (is_ws b) end.

Lemma rstrip_eq_iff nm c : ends_nonblank nm = true ->
  (rstrip c = nm <-> exists rest, c = nm ++ rest /\ forallb is_ws rest = true).
Proof.
  unfold ends_nonblank, rstrip. intro N. split.
  - intro E. destruct (lstrip_split (rev c)) as (w & Ew & W).
    exists (rev w). split; [|rewrite forallb_rev; exact W].
    rewrite <- E. rewrite <- rev_app_distr, <- Ew, rev_involutive. reflexivity.
  - intros (rest & -> & W). rewrite rev_app_distr.
    rewrite lstrip_ws_app; [|rewrite forallb_rev; exact W].
    destruct (rev nm) as [|b r] eqn:R; [discriminate|].
    rewrite lstrip_head; [|destruct (is_ws b); [discriminate | reflexivity]].
    rewrite <- R. apply rev_involutive.
Qed.

Lemma after_prefix_iff p l rest : after_prefix p l = Some rest <-> l = p ++ rest.
Proof.
  revert l; induction p as [|a p IH]; intros l; simpl.
  - split; [intro H; injection H as ->; reflexivity | intros ->; reflexivity].
  - destruct l as [|b l]; [split; discriminate|].
    destruct (N.eqb a b) eqn:E.
    + apply N.eqb_eq in E as ->. rewrite IH. split; [intros ->; reflexivity | intro H; injection H as ->; reflexivity].
    + split; [discriminate|]. intro H. injection H as -> _. rewrite N.eqb_refl in E. discriminate.
Qed.

Lemma line_lists_spec nm line :
  line_lists nm line = true <-> exists rest, lstrip line = nm ++ rest /\ forallb is_ws rest = true.
Proof.
  unfold line_lists. rewrite skip_blank_lstrip. split.
  - destruct (after_prefix nm (lstrip line)) as [rest|] eqn:E; [|discriminate].
    rewrite forallb_blank_ws. intro W. exists rest. split; [apply after_prefix_iff; exact E|exact W].
  - intros (rest & E & W). apply after_prefix_iff in E. rewrite E, forallb_blank_ws. exact W.
Qed.

(* per line, the model's strip against the statement's line_lists *)
Lemma strip_line_lists nm line : ends_nonblank nm = true ->
  bytes_eqb nm (strip line) = line_lists nm line.
Proof.
  intro N. apply eq_true_iff_eq. rewrite (list_eqb_spec _ N.eqb_eq), line_lists_spec. unfold strip.
  rewrite <- (rstrip_eq_iff nm _ N). split; intro E; symmetry; exact E.
Qed.

Lemma lstrip_app l m : forallb is_ws l = false -> lstrip (l ++ m) = lstrip l ++ m.
Proof.
  induction l as [|b r IH]; simpl; [discriminate|].
  destruct (is_ws b); [exact IH | reflexivity].
Qed.

Lemma strip_app_ws l w : forallb is_ws w = true -> strip (l ++ w) = strip l.
Proof.
  intro Hw. unfold strip. destruct (forallb is_ws l) eqn:W.
  - rewrite lstrip_ws_app by exact W. rewrite (lstrip_all_ws l W), (lstrip_all_ws w Hw). reflexivity.
  - rewrite (lstrip_app l w W). unfold rstrip. rewrite rev_app_distr.
    rewrite lstrip_ws_app by (rewrite forallb_rev; exact Hw). reflexivity.
Qed.

(* readlines f from the lines between line feeds: every line but the last gets its LF back,
   an empty last line disappears *)
Fixpoint relines (ls : list bytes) : list bytes :=
  match ls with
  | [] => []
  | l :: r => match r with
              | [] => match l with [] => [] | _ => [l] end
              | _ => (l ++ [LF]) :: relines r
              end
  end.

Lemma split_lf_nonempty f : split_lf f <> [].
Proof.
  destruct f as [|b r]; simpl; [discriminate|].
  destruct (N.eqb b 10); [discriminate|]. destruct (split_lf r); discriminate.
Qed.

Lemma readlines_relines f : readlines f = relines (split_lf f).
Proof.
  induction f as [|b r IH]; [reflexivity|]. simpl. unfold LF.
  destruct (N.eqb b 10) eqn:E.
  - apply N.eqb_eq in E as ->. simpl. rewrite IH.
    destruct (split_lf r) eqn:S; [exfalso; exact (split_lf_nonempty r S) | reflexivity].
  - rewrite IH. destruct (split_lf r) as [|l ls] eqn:S; [exfalso; exact (split_lf_nonempty r S)|].
    simpl. destruct ls; [destruct l; reflexivity | reflexivity].
Qed.

Lemma memb_existsb nm ls : memb nm ls = existsb (bytes_eqb nm) ls.
Proof. induction ls as [|l r IH]; simpl; [reflexivity|]. rewrite IH. reflexivity. Qed.

Lemma nonblank_end_nonempty nm : ends_nonblank nm = true -> bytes_eqb nm [] = false.
Proof. destruct nm; [discriminate | reflexivity]. Qed.

Theorem load_ids_lists nm f : ends_nonblank nm = true -> memb nm (load_ids f) = file_lists f nm.
Proof.
  intro N. unfold load_ids, file_lists. rewrite readlines_relines, memb_existsb.
  induction (split_lf f) as [|l r IH]; [reflexivity|].
  simpl. destruct r as [|l' r'].
  - rewrite <- (strip_line_lists nm l N). destruct l as [|b l].
    + change (false = bytes_eqb nm [] || false). rewrite (nonblank_end_nonempty nm N). reflexivity.
    + reflexivity.
  - change (existsb (bytes_eqb nm) (map strip ((l ++ [LF]) :: relines (l' :: r')))
            = line_lists nm l || existsb (line_lists nm) (l' :: r')).
    simpl map. simpl existsb at 1. rewrite (strip_app_ws l [LF] eq_refl), (strip_line_lists nm l N). f_equal. exact IH.
Qed.

Lemma wf_name_ends nm : wf_nameb nm = true -> ends_nonblank nm = true.
Proof.
  unfold wf_nameb, ends_nonblank. intro H. apply andb_true_iff in H as [H _]. apply andb_true_iff in H as [_ H].
  destruct (rev nm); [discriminate|]. rewrite <- blank_is_ws. exact H.
Qed.

Lemma in_load_list_listedb nms f : forallb wf_nameb nms = true ->
  forall i, in_load_list nms f i = listedb nms f i.
Proof.
  intros W i. unfold in_load_list, listedb. destruct (nth_error nms i) as [nm|] eqn:E; [|reflexivity].
  apply load_ids_lists. apply wf_name_ends. apply nth_error_In in E.
  rewrite forallb_forall in W. apply W; exact E.
Qed.

Theorem cli_load_runs nms f n : forallb wf_nameb nms = true ->
  cli_run (cli_load nms f n) = filter (listedb nms f) (leaves n)
  /\ cli_list (cli_load nms f n) = filter (listedb nms f) (leaves n)
  /\ paths (cli_load nms f n) = filter (fun p => listedb nms f (snd p)) (paths n).
Proof.
  intro W. unfold cli_run, cli_list, list_test, cli_load.
  rewrite filter_iterate, filter_paths, iterate_leaves.
  repeat split; apply filter_ext; intro a; apply in_load_list_listedb; exact W.
Qed.

Lemma split_lf_join f : join_lf (split_lf f) = f.
Proof.
  induction f as [|b r IH]; [reflexivity|]. simpl.
  destruct (N.eqb b 10) eqn:E.
  - apply N.eqb_eq in E as ->. simpl.
    destruct (split_lf r) eqn:S; [exfalso; exact (split_lf_nonempty r S)|]. rewrite IH. reflexivity.
  - destruct (split_lf r) as [|l ls] eqn:S; [exfalso; exact (split_lf_nonempty r S)|].
    simpl in *. destruct ls; rewrite <- IH; reflexivity.
Qed.

Lemma split_lf_no_lf f : Forall (fun l => ~ In 10%N l) (split_lf f).
Proof.
  induction f as [|b r IH]; simpl.
  - constructor; [intros []|constructor].
  - destruct (N.eqb b 10) eqn:E.
    + constructor; [intros [] | exact IH].
    + destruct (split_lf r) as [|l ls]; [constructor; [|constructor]|].
      * intros [H|[]]. subst b. discriminate.
      * inversion IH as [|? ? Hl Hls]; subst. constructor; [|exact Hls].
        intros [H|H]; [subst b; discriminate | exact (Hl H)].
Qed.

Lemma line_lists_iff nm line : wf_nameb nm = true ->
  (line_lists nm line = true <->
   exists a b, line = a ++ nm ++ b /\ forallb blank a = true /\ forallb blank b = true).
Proof.
  intro W. rewrite line_lists_spec. split.
  - intros (rest & E & B). destruct (lstrip_split line) as (w & Ew & Ww).
    exists w, rest. rewrite !forallb_blank_ws, <- E. repeat split; assumption.
  - intros (a & b & -> & A & B). rewrite forallb_blank_ws in A, B.
    exists b. split; [|exact B]. rewrite lstrip_ws_app by exact A.
    (* nm starts with a non-blank, so lstrip leaves it alone *)
    unfold wf_nameb in W. apply andb_true_iff in W as [W _]. apply andb_true_iff in W as [W _].
    destruct nm as [|c nm]; [discriminate|]. rewrite blank_is_ws in W.
    apply (lstrip_head c (nm ++ b)). destruct (is_ws c); [discriminate|reflexivity].
Qed.

(* `run --list > f; run --load-list f` selects every test *)
Definition list_output (nms : list bytes) (ids : list id) : bytes :=
  flat_map (fun i => nth i nms [] ++ [LF]) ids.

Lemma split_lf_line l r : ~ In 10%N l -> split_lf (l ++ 10%N :: r) = l :: split_lf r.
Proof.
  induction l as [|b l IH]; intro H; [reflexivity|]. simpl.
  destruct (N.eqb b 10) eqn:E; [apply N.eqb_eq in E; subst b; exfalso; apply H; left; reflexivity|].
  rewrite IH; [reflexivity|]. intro I. apply H. right. exact I.
Qed.

Lemma split_lf_list_output nms ids : (forall i, In i ids -> ~ In 10%N (nth i nms [])) ->
  split_lf (list_output nms ids) = map (fun i => nth i nms []) ids ++ [[]].
Proof.
  induction ids as [|j r IH]; intro H; [reflexivity|].
  unfold list_output. simpl. fold (list_output nms r). rewrite <- app_assoc. simpl.
  rewrite split_lf_line by (apply H; left; reflexivity).
  rewrite IH by (intros i I; apply H; right; exact I). reflexivity.
Qed.

Lemma wf_name_no_lf nm : wf_nameb nm = true -> ~ In 10%N nm.
Proof.
  unfold wf_nameb. intro H. apply andb_true_iff in H as [_ H]. rewrite forallb_forall in H.
  intro I. specialize (H 10%N I). discriminate.
Qed.

Lemma line_lists_self nm : wf_nameb nm = true -> line_lists nm nm = true.
Proof.
  intro W. apply (line_lists_iff nm nm W). exists [], []. rewrite app_nil_r. repeat split.
Qed.

Lemma name_at nms i : forallb wf_nameb nms = true -> i < length nms ->
  exists nm, nth_error nms i = Some nm /\ nth i nms [] = nm /\ wf_nameb nm = true.
Proof.
  intros W L. destruct (nth_error_lt nms i L) as [nm E]. exists nm. split; [exact E|].
  split; [apply nth_error_nth, E|]. rewrite forallb_forall in W. apply W. eapply nth_error_In, E.
Qed.

Lemma listed_own_output nms ids i : forallb wf_nameb nms = true ->
  (forall j, In j ids -> j < length nms) -> In i ids -> listedb nms (list_output nms ids) i = true.
Proof.
  intros W B I. destruct (name_at nms i W (B i I)) as (nm & E & En & Wn).
  unfold listedb, file_lists. rewrite E, split_lf_list_output.
  - apply existsb_exists. exists nm. split; [|apply line_lists_self; exact Wn].
    apply in_or_app. left. apply in_map_iff. exists i. split; [exact En|exact I].
  - intros j J. destruct (name_at nms j W (B j J)) as (x & _ & <- & Wx). apply wf_name_no_lf, Wx.
Qed.

Lemma enclosing_iff p q : In q (enclosing p) <-> exists r, r <> [] /\ p = q ++ r.
Proof.
  unfold enclosing. rewrite in_map_iff. split.
  - intros (k & <- & I). apply in_seq in I. exists (skipn k p). split; [|symmetry; apply firstn_skipn].
    intro E. pose proof (skipn_length k p) as L. rewrite E in L. simpl in L. lia.
  - intros (r & N & ->). exists (length q). split.
    + rewrite <- (Nat.add_0_r (length q)). rewrite firstn_app_2. simpl. apply app_nil_r.
    + apply in_seq. rewrite app_length. destruct r; [congruence|]. simpl. lia.
Qed.

Lemma group_eqb_spec p q : group_eqb p q = true <-> p = q.
Proof.
  apply pair_eqb_spec; [|apply Nat.eqb_eq]. apply list_eqb_spec. apply list_eqb_spec. apply Nat.eqb_eq.
Qed.

Lemma exn_eqb_spec a b : exn_eqb a b = true <-> a = b.
Proof. destruct a, b; simpl; eqb_components idtac. Qed.

