(* C13 - proofs: the comparison decides equality; the executable statement implies the readable one; the
   configurations reached by a schedule satisfy the invariants. *)
From TT Require Import Lib.Base Lib.EqbFacts Lib.ListFacts Model.Tfr Model.Concur Spec.C12 Spec.C13 Corr.C13 Proof.SchedFacts Proof.C12 Proof.C13 Proof.C13Classic.

Lemma qitem_eqb_spec a b : qitem_eqb a b = true <-> a = b.
Proof.
  destruct a, b; simpl; eqb_components ltac:(first [apply Nat.eqb_eq | apply rcode_eqb_spec | apply tstamp_eqb_spec]).
Qed.

Lemma cev_eqb_spec a b : cev_eqb a b = true <-> a = b.
Proof.
  destruct a, b; simpl;
    eqb_components ltac:(first [apply gev_eqb_spec | apply Nat.eqb_eq | apply qitem_eqb_spec | apply rcode_eqb_spec
                               | apply tstamp_eqb_spec | apply bool_eqb_spec]).
Qed.

Lemma tev_eqb_spec a b : tev_eqb a b = true <-> a = b.
Proof. apply pair_eqb_spec; [apply Nat.eqb_eq | apply cev_eqb_spec]. Qed.

Lemma dl_eqb_spec a b : dl_eqb a b = true <-> a = b.
Proof. apply (pair_eqb_spec ev3_eqb Bool.eqb ev3_eqb_spec bool_eqb_spec). Qed.
Lemma gev_list_eqb_spec a b : gev_list_eqb a b = true <-> a = b.
Proof. apply list_eqb_spec, gev_eqb_spec. Qed.

Lemma caobs_eqb_spec a b : aobs_eqb a b = true <-> a = b.
Proof.
  destruct a, b; unfold aobs_eqb; simpl.
  eqb_components ltac:(first [apply nats_eqb_spec | apply (list_eqb_spec _ (pair_eqb_spec _ _ gev_list_eqb_spec (list_eqb_spec _ dl_eqb_spec)))
                             | apply (list_eqb_spec _ tev_eqb_spec) | apply bool_eqb_spec | apply (list_eqb_spec _ bool_eqb_spec)]).
Qed.

Lemma is_prefix_sound {A} (eqb : A -> A -> bool) (He : forall a b, eqb a b = true -> a = b) :
  forall a b, is_prefix eqb a b = true -> exists rest, a ++ rest = b.
Proof.
  induction a as [|x a IH]; intros b H; simpl in H.
  - exists b. reflexivity.
  - destruct b as [|y b]; [discriminate|]. apply andb_true_iff in H as [H1 H2]. apply He in H1. subst.
    destruct (IH b H2) as [r <-]. exists r. reflexivity.
Qed.

Lemma common_sound n mt o : common_okb n mt o = true -> Common n mt o.
Proof.
  unfold common_okb, Common. intro H.
  apply andb_true_iff in H as [H H7]. apply andb_true_iff in H as [H H6]. apply andb_true_iff in H as [H H5].
  apply andb_true_iff in H as [H H4]. apply andb_true_iff in H as [H H3]. apply andb_true_iff in H as [H1 H2].
  apply (proj1 (bool_eqb_spec _ _)) in H6.
  split; [|split; [|split; [|split; [|split; [|split; [|split; [|split]]]]]]].
  - destruct (o_deadlock o); [discriminate | reflexivity].
  - intros e He. rewrite forallb_forall in H2. apply H2. exact He.
  - apply (list_eqb_spec _ Nat.eqb_eq). exact H3.
  - apply Nat.eqb_eq. exact H4.
  - intros Hr b Hb. rewrite Hr in H5. simpl in H5. rewrite forallb_forall in H5. specialize (H5 b Hb).
    destruct b; [discriminate | reflexivity].
  - split.
    + intro Hr. rewrite Hr in H6. symmetry in H6.
      apply orb_true_iff in H6 as [H6|H6]; [apply orb_true_iff in H6 as [H6|H6]|]; auto.
    + intro Hc. rewrite H6. destruct Hc as [ -> | [ -> | -> ] ]; simpl; rewrite ?orb_true_r; reflexivity.
  - intro Hr. rewrite Hr in H7. destruct (o_stops o); [reflexivity | discriminate].
  - intros Hr w Hw. rewrite Hr in H7. apply andb_true_iff in H7 as [H7 _]. rewrite forallb_forall in H7.
    apply Nat.ltb_lt. apply H7. exact Hw.
  - intros Hr Hnone w Hw. rewrite Hr in H7. apply andb_true_iff in H7 as [_ H7].
    apply orb_true_iff in H7 as [H7|H7].
    + apply existsb_exists in H7 as (b & Hb & ->). specialize (Hnone true Hb). discriminate.
    + rewrite forallb_idx_spec in H7. specialize (H7 w true Hw). simpl in H7.
      apply existsb_exists in H7 as (x & Hx & E). apply Nat.eqb_eq in E. subst. exact Hx.
Qed.

Lemma stream_worker_sound routes base raised tr w s :
  stream_worker_okb routes base raised tr w s = true -> StreamWorker routes base raised tr w s.
Proof.
  unfold stream_worker_okb, StreamWorker. intro H.
  apply andb_true_iff in H as [H H3]. apply andb_true_iff in H as [H1 H2]. split; [|split].
  - intros x Hx. rewrite forallb_forall in H1. apply H1. exact Hx.
  - apply (is_prefix_sound _ (fun a b => proj1 (ev3_eqb_spec a b))). exact H2.
  - intro Hr. rewrite Hr in H3. simpl in H3. apply Nat.eqb_eq in H3.
    destruct (is_prefix_sound _ (fun a b => proj1 (ev3_eqb_spec a b)) _ _ H2) as [rest E]. rewrite <- E.
    destruct rest as [|x rest]; [rewrite app_nil_r; reflexivity|]. exfalso.
    apply (f_equal (@length _)) in E. rewrite app_length, map_length in E. simpl in E. lia.
Qed.

(* br_body_okb accepts exactly: time, startTest br_id, time, [tags, [tags,]] addError br_id, stopTest br_id, all
   returning normally; the match search takes its nested match apart, leaving the blocks with two, one, no tags *)
Lemma br_body_sound body : br_body_okb body = true -> BrokenRunnerBlock body.
Proof.
  unfold br_body_okb, BrokenRunnerBlock. intro H.
  repeat match goal with
         | H : (_ && _) = true |- _ => apply andb_true_iff in H as [? ?]
         | H : (_ =? _) = true |- _ => apply Nat.eqb_eq in H; subst
         | H : match ?x with _ => _ end = true |- _ => destruct x; try discriminate
         end.
  - eexists _, _, [_; _]. split; [simpl; lia | reflexivity].
  - eexists _, _, [_]. split; [simpl; lia | reflexivity].
  - eexists _, _, []. split; [simpl; lia | reflexivity].
Qed.

Lemma classic_worker_sound base lg w sf : classic_worker_okb base lg w sf = true -> ClassicWorker base lg w sf.
Proof.
  unfold classic_worker_okb, ClassicWorker. destruct (before_raise (fst sf)) as [pre raises]. simpl fst; simpl snd.
  intros H Hfl Hwf. rewrite Hfl, Hwf in H. destruct (raises && negb base).
  - apply andb_true_iff in H as [H1 H2].
    destruct (is_prefix_sound gev_eqb (fun a b => proj1 (gev_eqb_spec a b)) _ _ H1) as [rest E].
    rewrite <- E in H2. rewrite skipn_exact in H2.
    destruct rest as [|e rest]; [discriminate|]. destruct e; try discriminate.
    destruct (rev rest) as [|e rbody] eqn:Er; [discriminate|]. destruct e; try discriminate.
    exists (rev rbody). split.
    + rewrite <- E. unfold section. do 2 f_equal. rewrite <- (rev_involutive rest), Er. reflexivity.
    + apply br_body_sound. exact H2.
  - apply (list_eqb_spec _ gev_eqb_spec). exact H.
Qed.

Lemma classic_okb_sound ci o : spec_okb (IClassic ci) o = true -> Spec (IClassic ci) o.
Proof.
  unfold spec_okb. simpl. intro H.
  apply andb_true_iff in H as [H H4]. apply andb_true_iff in H as [H H3]. apply andb_true_iff in H as [H1 H2].
  split; [apply common_sound; exact H1|]. split; [exact H2|]. split; [apply sectb_sections; exact H3|].
  intros w sf Hw Hn. apply classic_worker_sound. rewrite forallb_idx_spec in H4. apply (H4 w sf).
  apply nth_error_firstn. split; assumption.
Qed.

Lemma stream_okb_sound si o : spec_okb (IStream si) o = true -> Spec (IStream si) o.
Proof.
  unfold spec_okb. simpl. intro H. apply andb_true_iff in H as [H1 H2].
  split; [apply common_sound; exact H1|].
  intros w s Hw Hn. apply stream_worker_sound. rewrite forallb_idx_spec in H2. apply (H2 w s).
  apply nth_error_firstn. split; assumption.
Qed.

(* the configuration after an arbitrary schedule (an entry naming a blocked or finished thread is a no-op) *)
Definition creach (i : cinput) (sched : list tid) : cconf := fold_left (gstep' (cstep i)) sched (cinit i).
Definition sreach (i : sinput) (sched : list tid) : sconf := fold_left (gstep' (sstep i)) sched (sinit i).

Lemma creach_inv i sched : CInv i (creach i sched).
Proof. apply (gsteps_P (cstep i) (CInv i) (cstep_inv i)). apply cinit_inv. Qed.
Lemma sreach_inv i sched : SInv i (sreach i sched).
Proof. apply (gsteps_P (sstep i) (SInv i) (sstep_inv i)). apply sinit_inv. Qed.

