(* C01 - proofs: the run is bracketed, has exactly one outcome, and the first exception outside
   Exception is reported as the error and propagates. *)
From TT Require Import Lib.Base Lib.EqbFacts Lib.ListFacts Gen.Handlers Model.Run Spec.Run Spec.C01 Corr.C01 Proof.RunCore.

Lemma ev_eqb_spec a b : ev_eqb a b = true <-> a = b.
Proof. destruct a, b; simpl; eqb_components ltac:(apply outcome_eqb_spec). Qed.
Lemma rk_eqb_spec a b : rk_eqb a b = true <-> a = b.
Proof. destruct a, b; simpl; eqb_components idtac. Qed.

Lemma memb_in t l : memb t l = true <-> In t l.
Proof. apply existsb_eqb_In. Qed.
Lemma subset_incl a b : subset a b = true <-> (forall t, In t a -> In t b).
Proof.
  unfold subset. rewrite forallb_forall. split; intros H t Ht; apply memb_in; auto.
Qed.

Lemma bracket_some f evs out :
  bracket f evs = Some out -> evs = if has_stop f then [Start; Out out; Stop] else [Start; Out out].
Proof.
  unfold bracket. intros H.
  destruct evs as [|[| |] evs]; try discriminate H.
  destruct evs as [|[|o|] evs]; try discriminate H.
  destruct evs as [|[| |] evs]; try discriminate H.
  - destruct (has_stop f); [discriminate H | now injection H as ->].
  - destruct evs; [|discriminate H]. destruct (has_stop f); [now injection H as -> | discriminate H].
Qed.

Theorem spec_okb_sound i o : spec_okb i o = true -> Spec i o.
Proof.
  unfold spec_okb, Spec. destruct (bracket (i_flavour i) (o_events o)) as [out|] eqn:B; [|discriminate].
  intros H. exists out. split; [exact (bracket_some _ _ _ B)|].
  destruct (find _ (raised (i_prog i))) as [e|] eqn:F.
  - apply andb_true_iff in H as [H H3]. apply andb_true_iff in H as [H1 H2].
    apply outcome_eqb_spec in H1. apply rk_eqb_spec in H2. split.
    + intros All. apply find_some in F. destruct F as [Fin Fb]. rewrite (All e Fin) in Fb. discriminate.
    + intros e' He'. injection He' as <-. split; [assumption|]. split; [assumption|].
      intros t Ht. rewrite forallb_forall in H3. apply memb_in. exact (H3 t Ht).
  - apply rk_eqb_spec in H. split; [intros _; exact H | intros e' He'; discriminate].
Qed.

(* from here on the machine; the comparisons above need nothing of it *)
From TT Require Import Proof.RunExtra Proof.RunTable Proof.RunVerdict.

Definition within_Exception (u : list (cls * outcome)) : bool := forallb (fun co => subclass (fst co) CException) u.
Definition handlers_within_Exception (p : prog) : bool := within_Exception (user_handlers p).

Lemma uclaimed_iff u e : within_Exception u = true -> uclaimed u e = isinstance e CException.
Proof.
  intros W. unfold uclaimed, uclaim.
  destruct (find _ u) as [co|] eqn:F; [|reflexivity].
  apply find_some in F. destruct F as [Hin Hi]. unfold within_Exception in W.
  rewrite forallb_forall in W. symmetry. eapply subclass_trans; [exact Hi | exact (W co Hin)].
Qed.
Lemma claimed_iff p e : handlers_within_Exception p = true -> claimed p e = isinstance e CException.
Proof. intros W. exact (uclaimed_iff (user_handlers p) e W). Qed.

Lemma find_unclaimed_u u X :
  within_Exception u = true ->
  find (fun e => negb (uclaimed u e)) X = find (fun e => negb (derives_from_Exception e)) X.
Proof. intros W. apply find_ext_in. intros e _. unfold derives_from_Exception. now rewrite (uclaimed_iff _ _ W). Qed.

(* a force_failure flag left set by an earlier run adds the forced failure, an AssertionError: the
   first exception outside Exception is the one the program itself raises *)
Lemma find_base_collected p f0 :
  find (fun e => negb (derives_from_Exception e)) (collected_run p f0)
  = find (fun e => negb (derives_from_Exception e)) (raised p).
Proof.
  unfold collected_run. destruct (skipped p) eqn:S; [now rewrite (raised_skipped _ S)|].
  unfold collected, raised, forced_failure. rewrite S. cbn [negb andb]. rewrite !find_app.
  destruct (find _ (raised_by_user p)); [reflexivity|]. destruct (f0 || forced p), (forced p); reflexivity.
Qed.

Lemma verdict_from_base p u0 f0 :
  within_Exception (rev (inserted p) ++ u0) = true ->
  match find (fun e => negb (derives_from_Exception e)) (raised p) with
  | Some e => verdict_from p u0 f0 = (OErr, Some e)
  | None => snd (verdict_from p u0 f0) = None
  end.
Proof.
  intros W. rewrite <- (find_base_collected p f0). unfold verdict_from, collected_run, decide_u, reported_for.
  destruct (skipped p); [reflexivity|]. destruct (collected p f0) as [|x r]; [reflexivity|].
  rewrite (find_unclaimed_u _ _ W). destruct (find _ (x :: r)) as [e|] eqn:F.
  - apply find_some in F as [_ F]. apply negb_true_iff in F. unfold derives_from_Exception in F.
    rewrite (uclaimed_iff _ _ W), F, unclaimed_is_error; [reflexivity | now rewrite (uclaimed_iff _ _ W)].
  - apply (find_none_last _ _ (Exc CFail None)) in F; [|discriminate]. apply negb_false_iff in F.
    unfold derives_from_Exception in F. now rewrite (uclaimed_iff _ _ W), F.
Qed.
Lemma verdict_base p :
  handlers_within_Exception p = true ->
  match find (fun e => negb (derives_from_Exception e)) (raised p) with
  | Some e => verdict_of p = (OErr, Some e)
  | None => snd (verdict_of p) = None
  end.
Proof. rewrite <- verdict_from_fresh. apply verdict_from_base. Qed.

Lemma uh_state_after r l : forall s,
  uh (state_after r l s) = fold_left (fun u p => rev (inserted p) ++ u) l (uh s).
Proof.
  induction l as [|p l' IH]; intros s; [reflexivity|]. unfold state_after in *. cbn [fold_left].
  rewrite IH, factory_irrelevant. destruct (run_from_verdict p (clear s)) as (s' & d & R & _ & _ & _ & _ & U & _).
  rewrite R. cbn [fst]. now rewrite U.
Qed.
Lemma uh_start_state i : uh (start_state i) = handlers_before i.
Proof. unfold start_state. now rewrite uh_state_after. Qed.

Lemma tokens_of_shape l :
  tokens_of l = flat_map (fun e => match e with STok t => [t] | STouch _ => [] end) (map shape l).
Proof. induction l as [|e r IH]; [reflexivity|]. destruct e; cbn; now rewrite <- IH. Qed.
(* the verdict of the observed run: the handlers and the force_failure flag are the ones the earlier
   runs left *)
Definition verdict_at (i : input) : outcome * option exc :=
  verdict_from (i_prog i) (uh (start_state i)) (force (start_state i)).

Lemma model_obs i :
  model i = {| o_events := Start :: Out (deliver (i_flavour i) (fst (verdict_at i)))
                           :: (if has_stop (i_flavour i) then [Stop] else []);
               o_raised := match snd (verdict_at i) with Some e => kind_of e | None => RNone end;
               o_ran := expected_tokens (i_prog i) |}.
Proof.
  unfold model, verdict_at. rewrite factory_irrelevant.
  destruct (run_from_verdict (i_prog i) (clear (start_state i))) as (s & d & R & C & L & _).
  cbn [clear uh force tr log set_tr set_log calls filter map app] in *. rewrite R. f_equal.
  - unfold events_of. rewrite <- flat_map_calls, C by reflexivity. cbn. now destruct (has_stop (i_flavour i)).
  - rewrite tokens_of_shape, L. reflexivity.
Qed.

Theorem model_meets_spec i : wf i = true -> spec_okb i (model i) = true.
Proof.
  intros W. unfold wf in W. apply andb_true_iff in W as [_ Wh]. fold (within_Exception (handlers_at_outcome i)) in Wh.
  unfold handlers_at_outcome in Wh. rewrite <- uh_start_state in Wh.
  rewrite model_obs. unfold spec_okb. cbn [o_events o_raised o_ran].
  assert (B : forall o, bracket (i_flavour i) (Start :: Out o :: (if has_stop (i_flavour i) then [Stop] else [])) = Some o).
  { intros o. unfold bracket. destruct (has_stop (i_flavour i)) eqn:Hs; rewrite ?Hs; reflexivity. }
  rewrite B. pose proof (verdict_from_base (i_prog i) _ (force (start_state i)) Wh) as V. fold (verdict_at i) in V.
  destruct (find _ (raised (i_prog i))); rewrite V; [|reflexivity]. cbn [fst snd].
  rewrite (eqb_spec_refl _ outcome_eqb_spec), (eqb_spec_refl _ rk_eqb_spec). now apply subset_incl.
Qed.

(* the configuration is irrelevant (RunExtra.factory_irrelevant), also through the earlier runs *)
Lemma state_after_irrelevant r l : forall s, state_after r l s = state_after default_runner l s.
Proof.
  unfold state_after. induction l as [|p l' IH]; intros s; [reflexivity|]. cbn [fold_left].
  rewrite !factory_irrelevant. apply IH.
Qed.
Theorem model_factory_irrelevant i :
  model i = model {| i_prev := i_prev i; i_prog := i_prog i; i_flavour := i_flavour i; i_runner := default_runner |}.
Proof.
  unfold model, start_state, first_prog. cbn [i_prev i_prog i_flavour i_runner].
  rewrite (state_after_irrelevant (i_runner i)), !factory_irrelevant. reflexivity.
Qed.

Theorem bracket_delivered i :
  exists o, o_events (model i) = if has_stop (i_flavour i) then [Start; Out o; Stop] else [Start; Out o].
Proof.
  rewrite model_obs. eexists. cbn [o_events]. destruct (has_stop (i_flavour i)); reflexivity.
Qed.

(* C01_base_reported: an exception outside Exception raised anywhere is reported as the error,
   every stage and cleanup still runs (the log is the full expected one), and the first such
   exception comes out of run() *)
Theorem base_reported p a0 e :
  handlers_within_Exception p = true ->
  find (fun e => negb (derives_from_Exception e)) (raised p) = Some e ->
  exists s d, run p a0 = (s, Some e, false)
              /\ calls (tr s) = [TStart; TOut OErr d; TStop]
              /\ map shape (log s) = expected_log p
              /\ stack s = [].
Proof.
  intros Wh F. destruct (run_verdict p a0) as (s & d & R & C & L & K).
  pose proof (verdict_base p Wh) as V. rewrite F in V. rewrite V in *. exists s, d. repeat split; assumption.
Qed.

Theorem returns_otherwise p a0 :
  handlers_within_Exception p = true ->
  (forall e, In e (raised p) -> derives_from_Exception e = true) ->
  exists s, run p a0 = (s, None, false).
Proof.
  intros Wh All. destruct (run_verdict p a0) as (s & d & R & _). pose proof (verdict_base p Wh) as V.
  exists s. rewrite R. destruct (find _ (raised p)) as [e|] eqn:F; [|now rewrite V].
  apply find_some in F. destruct F as [Fin Fb]. rewrite (All e Fin) in Fb. discriminate.
Qed.

(* the exception that propagates is the FIRST one outside Exception: everything raised before it
   derives from Exception, whatever is raised after it *)
Lemma find_first {A} (g : A -> bool) l x :
  find (fun y => negb (g y)) l = Some x -> exists a b, l = a ++ x :: b /\ g x = false /\ forallb g a = true.
Proof.
  induction l as [|y r IH]; simpl; [discriminate|]. destruct (g y) eqn:E; cbn [negb].
  - intros H. destruct (IH H) as (a & b & -> & Hx & Ha). exists (y :: a), b. simpl. now rewrite E.
  - intros H; injection H as ->. now exists [], r.
Qed.
Theorem first_base_propagates p a0 s e :
  handlers_within_Exception p = true ->
  run p a0 = (s, Some e, false) ->
  exists before after, raised p = before ++ e :: after
                       /\ derives_from_Exception e = false
                       /\ forallb derives_from_Exception before = true.
Proof.
  intros Wh R. destruct (run_verdict p a0) as (s' & d & R' & _). rewrite R in R'.
  assert (V : snd (verdict_of p) = Some e) by congruence. pose proof (verdict_base p Wh) as B.
  destruct (find (fun e => negb (derives_from_Exception e)) (raised p)) as [x|] eqn:F; [|congruence].
  rewrite B in V. injection V as ->. exact (find_first _ _ _ F).
Qed.

(* whatever is raised - with or without an exception outside Exception - the bodies that ran are
   exactly the ones that are to run: setUp; test and tearDown iff setUp returned; every cleanup *)
Theorem all_bodies_ran i : forall t, In t (o_ran (model i)) <-> In t (expected_tokens (i_prog i)).
Proof. now rewrite model_obs. Qed.

Lemma existsb_find_some {A} (f : A -> bool) l : existsb f l = true -> exists x, find f l = Some x.
Proof. rewrite existsb_find. destruct (find f l) as [x|]; [eexists; reflexivity | discriminate]. Qed.
Lemma find_none_existsb {A} (f : A -> bool) l : find f l = None -> existsb f l = false.
Proof. rewrite existsb_find. now intros ->. Qed.
