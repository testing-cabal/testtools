(* C13 - proofs.  The stream suite (ConcurrentStreamTestSuite): the invariant of every reachable
   configuration, the measure, and the model against the statement.  The classic suite is in
   Proof/C13Classic.v. *)
From TT Require Import Lib.Base Lib.EqbFacts Lib.ListFacts Model.Tfr Model.Concur Spec.C12 Spec.C13 Corr.C13 Proof.SchedFacts Proof.C12.

Definition qowner (q : qitem) : nat :=
  match q with QToken w | QStart w | QStop w | QStatus w _ _ _ _ => w end.
(* the items of worker w ("from w"); from here on this name hides the field fw of Model.Tfr.thread, which
   Proof/C13Classic.v therefore writes Tfr.fw *)
Definition fw (w : nat) (l : list qitem) : list qitem := filter (fun q => qowner q =? w) l.
Definition putsq (tr : list (tid * cev)) : list qitem :=
  flat_map (fun e => match snd e with CPut q => [q] | _ => [] end) tr.
Definition gotten (tr : list (tid * cev)) : list qitem :=
  flat_map (fun e => match snd e with CGet q => [q] | _ => [] end) tr.
Definition stopsq (l : list qitem) : list nat :=
  flat_map (fun q => match q with QStop w => [w] | _ => [] end) l.
(* a delivered event without its "raised" flag: the (id, status, route code, timestamp) the statement compares *)
Definition to3 (x : nat * nat * rcode * tstamp * bool) : nat * nat * rcode * tstamp := fst x.

Lemma fw_app w a b : fw w (a ++ b) = fw w a ++ fw w b.
Proof. apply filter_app. Qed.
Lemma ev_of_app a b : ev_of (a ++ b) = ev_of a ++ ev_of b.
Proof. induction a as [|q a IH]; simpl; [reflexivity|]. destruct q; simpl; rewrite ?IH; reflexivity. Qed.
Lemma stopsq_app a b : stopsq (a ++ b) = stopsq a ++ stopsq b.
Proof. apply flat_map_app. Qed.

Lemma flat_map_snoc {A B} (f : A -> list B) l x : flat_map f (l ++ [x]) = flat_map f l ++ f x.
Proof. rewrite flat_map_app. simpl. rewrite app_nil_r. reflexivity. Qed.

Lemma putsq_snoc tr t e : putsq (tr ++ [(t, e)]) = putsq tr ++ match e with CPut q => [q] | _ => [] end.
Proof. apply flat_map_snoc. Qed.
Lemma gotten_snoc tr t e : gotten (tr ++ [(t, e)]) = gotten tr ++ match e with CGet q => [q] | _ => [] end.
Proof. apply flat_map_snoc. Qed.
Lemma spawns_snoc tr t e : spawns (tr ++ [(t, e)]) = spawns tr ++ match e with CSpawn w => [w] | _ => [] end.
Proof. apply flat_map_snoc. Qed.
Lemma joins_snoc tr t e : joins (tr ++ [(t, e)]) = joins tr ++ match e with CJoin w => [w] | _ => [] end.
Proof. apply flat_map_snoc. Qed.
Lemma delivered_snoc w tr t e :
  delivered w (tr ++ [(t, e)]) =
  delivered w tr ++ match e with CStatus w' i s o ts r => if w' =? w then [(i, s, o, ts, r)] else [] | _ => [] end.
Proof. apply flat_map_snoc. Qed.
Lemma cg_log_snoc tr t e : cg_log (tr ++ [(t, e)]) = cg_log tr ++ match e with CG g => [(t, g)] | _ => [] end.
Proof. apply flat_map_snoc. Qed.
Lemma main_stops_snoc tr t e :
  main_stops (tr ++ [(t, e)]) =
  main_stops tr ++ match t, e with 0, CG (ECall (TGuard GStop) b) => [b] | _, _ => [] end.
Proof. apply flat_map_snoc. Qed.
Lemma has_intr_snoc tr t e :
  has_intr (tr ++ [(t, e)]) = has_intr tr || match e with CGetIntr => true | _ => false end.
Proof. apply existsb_snoc. Qed.
Lemma status_raised_snoc tr t e :
  status_raised (tr ++ [(t, e)]) = status_raised tr || match e with CStatus _ _ _ _ _ true => true | _ => false end.
Proof. apply existsb_snoc. Qed.

(* Every step appends one event to the trace.  [snoc_readers] rewrites each reader of the extended trace with its
   *_snoc lemma and tidies [_ ++ []] / [_ || false]; [snoc_main_readers] does so for the readers the clauses about
   main mention only: every rewrite tried is paid for, whether it fires or not. *)
Ltac snoc_readers :=
  unfold slog, clog;
  rewrite ?putsq_snoc, ?gotten_snoc, ?spawns_snoc, ?joins_snoc, ?delivered_snoc, ?has_intr_snoc, ?status_raised_snoc,
    ?forallb_snoc, ?main_stops_snoc, ?cg_log_snoc;
  simpl; rewrite ?app_nil_r, ?orb_false_r.
Ltac snoc_main_readers :=
  unfold slog, clog;
  rewrite ?gotten_snoc, ?joins_snoc, ?delivered_snoc, ?has_intr_snoc, ?status_raised_snoc, ?main_stops_snoc;
  cbv beta iota; rewrite ?app_nil_r, ?orb_false_r.

Lemma worker_ev_readers log (u : tid) e : u <> 0 -> match e with CG _ | CPut _ => True | _ => False end ->
  gotten (log ++ [(u, e)]) = gotten log /\ joins (log ++ [(u, e)]) = joins log
  /\ (forall w, delivered w (log ++ [(u, e)]) = delivered w log)
  /\ has_intr (log ++ [(u, e)]) = has_intr log /\ status_raised (log ++ [(u, e)]) = status_raised log
  /\ main_stops (log ++ [(u, e)]) = main_stops log.
Proof.
  intros Hu He. rewrite gotten_snoc, joins_snoc, has_intr_snoc, status_raised_snoc, main_stops_snoc.
  destruct u; [contradiction|].
  assert (Hd : forall w, delivered w (log ++ [(S u, e)]) = delivered w log).
  { intro w. rewrite delivered_snoc. destruct e; try contradiction; apply app_nil_r. }
  destruct e; try contradiction; rewrite ?app_nil_r, ?orb_false_r; repeat split; exact Hd.
Qed.

Lemma emits_owner rt w base s : Forall (fun q => qowner q = w) (emits rt w base s).
Proof.
  induction s as [|[id st own a|] r IH]; simpl; [constructor | constructor; [reflexivity | exact IH] |].
  destruct base; repeat constructor.
Qed.
Lemma emits_nostop rt w base s : stopsq (emits rt w base s) = [].
Proof. induction s as [|[id st own a|] r IH]; simpl; [reflexivity | exact IH | destruct base; reflexivity]. Qed.
Lemma emits_length rt w base s : length (emits rt w base s) <= length s + 2.
Proof. induction s as [|[id st own a|] r IH]; simpl; [lia | lia | destruct base; simpl; lia]. Qed.
Lemma worker_puts_owner rt w base s : Forall (fun q => qowner q = w) (worker_puts rt w base s).
Proof.
  unfold worker_puts. apply Forall_app. split; [apply emits_owner | repeat constructor].
Qed.
Lemma worker_puts_length rt w base s : length (worker_puts rt w base s) <= length s + 4.
Proof. unfold worker_puts. rewrite app_length. simpl. pose proof (emits_length rt w base s). lia. Qed.

Lemma fw_all w l : Forall (fun q => qowner q = w) l -> fw w l = l.
Proof.
  induction 1 as [|q l Hq Hl IH]; simpl; [reflexivity|]. rewrite Hq, Nat.eqb_refl, IH. reflexivity.
Qed.
Lemma fw_nil w l : Forall (fun q => qowner q <> w) l -> fw w l = [].
Proof.
  induction 1 as [|q l Hq Hl IH]; simpl; [reflexivity|].
  destruct (qowner q =? w) eqn:E; [apply Nat.eqb_eq in E; contradiction | exact IH].
Qed.
Lemma fw_none w v l : Forall (fun q => qowner q = v) l -> v <> w -> fw w l = [].
Proof.
  intros H Hne. apply fw_nil. eapply Forall_impl; [|exact H]. simpl. intros q Hq. congruence.
Qed.

Definition unreaped_of (k : nat) (popped : list nat) : list nat :=
  filter (fun w => negb (memb w popped)) (seq 0 k).

Lemma unreaped_of_nil k : unreaped_of k [] = seq 0 k.
Proof. unfold unreaped_of. induction (seq 0 k) as [|x l IH]; simpl; [reflexivity | f_equal; exact IH]. Qed.

Lemma unreaped_of_snoc k l : unreaped_of (S k) l = unreaped_of k l ++ (if memb k l then [] else [k]).
Proof.
  unfold unreaped_of. rewrite seq_S, filter_app. simpl. destruct (memb k l); reflexivity.
Qed.

Lemma nth_error_snoc {A} (l : list A) x w y : nth_error (l ++ [x]) w = Some y ->
  (w < length l /\ nth_error l w = Some y) \/ (w = length l /\ y = x).
Proof.
  intro H. destruct (Nat.lt_ge_cases w (length l)) as [Hlt|Hge].
  - rewrite nth_error_app1 in H by exact Hlt. left; auto.
  - rewrite nth_error_app2 in H by exact Hge. destruct (w - length l) as [|d] eqn:E.
    + simpl in H. injection H as <-. right. split; [lia | reflexivity].
    + simpl in H. destruct d; discriminate.
Qed.

Lemma fw_lt_nil k l : Forall (fun q => qowner q < k) l -> fw k l = [].
Proof.
  intro H. apply fw_nil. eapply Forall_impl; [|exact H]. simpl. intros q Hq. lia.
Qed.

Lemma memb_app x a b : memb x (a ++ b) = memb x a || memb x b.
Proof. unfold memb. apply existsb_app. Qed.

Lemma unreaped_remove k l w : remove_nat w (unreaped_of k l) = unreaped_of k (l ++ [w]).
Proof.
  unfold remove_nat, unreaped_of. induction (seq 0 k) as [|x r IH]; simpl; [reflexivity|].
  rewrite memb_app. simpl. rewrite orb_false_r.
  destruct (memb x l); simpl; [exact IH|].
  rewrite (Nat.eqb_sym x w). destruct (w =? x); simpl; [exact IH | f_equal; exact IH].
Qed.

Lemma unreaped_nil_all k l : unreaped_of k l = [] -> forall v, v < k -> memb v l = true.
Proof.
  unfold unreaped_of. intros H v Hv.
  assert (Hin : In v (seq 0 k)) by (apply in_seq; lia).
  destruct (memb v l) eqn:E; [reflexivity|]. exfalso.
  assert (In v (filter (fun w => negb (memb w l)) (seq 0 k))) by (apply filter_In; rewrite E; auto).
  rewrite H in H0. contradiction.
Qed.

Lemma unreaped_lt k l : forallb (fun w => w <? k) (unreaped_of k l) = true.
Proof.
  apply forallb_forall. intros w Hw. unfold unreaped_of in Hw. apply filter_In in Hw as [Hw _].
  apply in_seq in Hw. apply Nat.ltb_lt. lia.
Qed.

Lemma forallb_memb_self l : forallb (fun w => memb w l) l = true.
Proof.
  apply forallb_forall. intros w Hw. unfold memb. apply existsb_exists. exists w. split; [exact Hw | apply Nat.eqb_refl].
Qed.

Lemma memb_In v l : memb v l = true <-> In v l.
Proof. apply existsb_eqb_In. Qed.

Lemma stopsq_In v l : memb v (stopsq l) = true <-> In (QStop v) l.
Proof.
  rewrite memb_In. unfold stopsq. rewrite in_flat_map. split.
  - intros ([] & Hx & Hv); try contradiction. destruct Hv as [<-|[]]. exact Hx.
  - intro H. exists (QStop v). split; [exact H | left; reflexivity].
Qed.

Lemma app_snoc_in {A} (a b e : list A) x : a ++ b = e ++ [x] -> In x a -> ~ In x e -> b = [].
Proof.
  intros E Hin Hne. induction b as [|y b _] using rev_ind; [reflexivity|]. exfalso.
  rewrite app_assoc in E. apply app_inj_tail in E as [<- _]. apply Hne. apply in_or_app. left. exact Hin.
Qed.

Lemma stop_is_last rt w base s a b : a ++ b = worker_puts rt w base s -> In (QStop w) a -> b = [].
Proof.
  intros E Hin. apply (app_snoc_in _ _ _ _ E Hin). intro H. apply stopsq_In in H.
  rewrite emits_nostop in H. discriminate.
Qed.

Lemma after_spawn_cases k n mt : k <= n -> (forall m, mt = Some m -> k <= m) ->
  (option_eqb Nat.eqb mt (Some k) = true /\ started n mt = k /\ mt_raises n mt = true)
  \/ (option_eqb Nat.eqb mt (Some k) = false /\
      ((k <? n) = true /\ k < started n mt \/ (k <? n) = false /\ started n mt = k /\ mt_raises n mt = false)).
Proof.
  intros Hkn Hmt. unfold started, mt_raises. destruct mt as [m|]; simpl.
  - specialize (Hmt m eq_refl). destruct (Nat.eqb_spec m k) as [->|Hne].
    + left. rewrite (proj2 (Nat.leb_le k n) Hkn). repeat split; lia.
    + right. split; [reflexivity|]. destruct (Nat.ltb_spec k n); [left; split; [reflexivity | lia]|].
      right. repeat split; try lia. apply Nat.leb_gt. lia.
  - right. split; [reflexivity|]. destruct (Nat.ltb_spec k n); [left | right]; repeat split; lia.
Qed.
Lemma started_mt_bound j n mt m : j < started n mt -> mt = Some m -> S j <= m.
Proof. intros H ->. unfold started in H. lia. Qed.
Lemma started_lt_n j n mt : j < started n mt -> j < n.
Proof. unfold started. destruct mt; lia. Qed.

Section Stream.
  Variable i : sinput.
  Let n := length (si_suites i).
  Let K := started n (si_mt_raise i).
  Let base := si_base i.

  Definition pend_status (c : sconf) : list qitem := match s_main c with SMStatus q => [q] | _ => [] end.
  Definition pend_join (c : sconf) : list nat := match s_main c with SMJoin w => [w] | _ => [] end.
  Definition raise_expected (tr : list (tid * cev)) : bool :=
    mt_raises n (si_mt_raise i) || has_intr tr || status_raised tr.

  (* the part that does not depend on where main is *)
  Record SBase (log : list (tid * cev)) (q : list qitem) (ws : list (list qitem)) : Prop := {
    sb_le : length ws <= K;
    sb_spawns : spawns log = seq 0 (length ws);
    sb_own : forallb (own_thread K) log = true;
    sb_workers : forall w todo, nth_error ws w = Some todo ->
        exists s, nth_error (si_suites i) w = Some s /\ fw w (putsq log) ++ todo = worker_puts (sroute i w) w base s;
    sb_fifo : forall w, fw w (gotten log ++ q) = fw w (putsq log);
    sb_qown : Forall (fun x => qowner x < length ws) (gotten log ++ q);
    sb_nostops : main_stops log = [] }.

  Record SInv (c : sconf) : Prop := {
    sv_base : SBase (s_log c) (s_queue c) (s_workers c);
    (* what main has dequeued it has passed on or joined, but for the one item in its hands *)
    sv_deliv : forall w, map to3 (delivered w (s_log c)) ++ ev_of (fw w (pend_status c)) = ev_of (fw w (gotten (s_log c)));
    sv_joins : joins (s_log c) ++ pend_join c = stopsq (gotten (s_log c));
    sv_pend : match s_main c with
              | SMStatus q => exists w id st own ts, q = QStatus w id st own ts /\ w < length (s_workers c)
              | SMJoin w => w < length (s_workers c)
              | _ => True
              end;
    sv_phase :
      match s_main c with
      | SMSpawn j => j = length (s_workers c) /\ j < K /\ gotten (s_log c) = []
      | SMDone =>
          s_raised c = raise_expected (s_log c)
          /\ s_stops c = (if s_raised c then unreaped_of K (joins (s_log c)) else [])
          /\ length (s_live c) = K /\ length (s_workers c) = K
          /\ (s_raised c = false -> forallb negb (s_live c) = true /\ unreaped_of K (joins (s_log c)) = [])
          (* who was alive when run() ended had not been joined *)
          /\ (forall w, nth_error (s_live c) w = Some true -> memb w (joins (s_log c)) = false)
      | _ => length (s_workers c) = K /\ mt_raises n (si_mt_raise i) = false
             /\ (match s_main c with SMJoin _ => True | _ => s_unreaped c <> [] end)
      end;
    sv_running :
      match s_main c with
      | SMDone => True
      | _ => s_raised c = false /\ s_stops c = [] /\ has_intr (s_log c) = false /\ status_raised (s_log c) = false
             /\ s_unreaped c = unreaped_of (length (s_workers c)) (stopsq (gotten (s_log c)))
      end
  }.

  Lemma sbase_put log q ws w x todo : SBase log q ws -> nth_error ws w = Some (x :: todo) ->
    SBase (log ++ [(S w, CPut x)]) (q ++ [x]) (upd ws w todo).
  Proof.
    intros [Hle Hsp Hown Hwk Hfifo Hqo Hns] Hn.
    assert (Hw : w < length ws) by (apply nth_error_Some; congruence).
    assert (Hx : qowner x = w).
    { destruct (Hwk w _ Hn) as (s & _ & E). pose proof (worker_puts_owner (sroute i w) w base s) as Ho.
      rewrite <- E in Ho. apply Forall_app in Ho as [_ Ho]. inversion Ho; assumption. }
    constructor; rewrite ?length_upd; snoc_readers; try assumption.
    - rewrite Hown. reflexivity.
    - apply (upd_pointwise (fun v t => exists s, nth_error (si_suites i) v = Some s
                                       /\ fw v (putsq log ++ [x]) ++ t = worker_puts (sroute i v) v base s) _ _ _ _ Hn).
      + destruct (Hwk w _ Hn) as (s & Hs & E). exists s. split; [exact Hs|].
        rewrite fw_app. simpl. rewrite Hx, Nat.eqb_refl, <- app_assoc. exact E.
      + intros v t Hne Hv. destruct (Hwk v t Hv) as (s & Hs & E). exists s. split; [exact Hs|].
        rewrite fw_app. simpl. rewrite Hx. destruct (w =? v) eqn:Ewv; [apply Nat.eqb_eq in Ewv; congruence|].
        rewrite app_nil_r. exact E.
    - intro v. rewrite app_assoc, fw_app, Hfifo, <- fw_app. reflexivity.
    - rewrite app_assoc. apply Forall_app. split; [exact Hqo|]. constructor; [lia | constructor].
  Qed.

  Lemma sbase_spawn log q ws s : SBase log q ws -> length ws < K -> nth_error (si_suites i) (length ws) = Some s ->
    SBase (log ++ [(0, CSpawn (length ws))]) q (ws ++ [worker_puts (sroute i (length ws)) (length ws) base s]).
  Proof.
    intros [Hle Hsp Hown Hwk Hfifo Hqo Hns] HK Hs.
    constructor; rewrite ?app_length; snoc_readers; simpl length; try assumption.
    - lia.
    - rewrite Hsp, Nat.add_1_r, seq_S. reflexivity.
    - rewrite Hown. simpl. apply Nat.ltb_lt. exact HK.
    - intros w todo Hn. apply nth_error_snoc in Hn as [[_ Hn]|[-> ->]]; [apply Hwk; exact Hn|].
      exists s. split; [exact Hs|]. rewrite <- Hfifo, (fw_lt_nil _ _ Hqo). reflexivity.
    - eapply Forall_impl; [|exact Hqo]. simpl. intros; lia.
  Qed.

  Lemma sbase_main_ev log q q' ws e : SBase log q ws -> own_thread K (0, e) = true ->
    match e with
    | CPut _ | CSpawn _ | CG _ => False
    | CGet x => q = x :: q'
    | _ => q' = q
    end -> SBase (log ++ [(0, e)]) q' ws.
  Proof.
    intros [Hle Hsp Hown Hwk Hfifo Hqo Hns] Ho He.
    constructor; snoc_readers; try assumption.
    - destruct e; try contradiction; rewrite app_nil_r; exact Hsp.
    - rewrite Hown. exact Ho.
    - destruct e; try contradiction; rewrite app_nil_r; exact Hwk.
    - destruct e; try contradiction; subst; rewrite ?app_nil_r, <- ?app_assoc; exact Hfifo.
    - destruct e; try contradiction; subst; rewrite ?app_nil_r, <- ?app_assoc; exact Hqo.
    - destruct e; try contradiction; rewrite app_nil_r; exact Hns.
  Qed.

  Lemma popped_done log q ws v todo : SBase log q ws -> In (QStop v) (gotten log) -> nth_error ws v = Some todo -> todo = [].
  Proof.
    intros HB Hin Hn. destruct (sb_workers _ _ _ HB v _ Hn) as (s & Hs & E).
    apply (stop_is_last (sroute i v) v base s _ _ E). rewrite <- (sb_fifo _ _ _ HB v), fw_app. apply in_or_app. left.
    apply filter_In. split; [exact Hin | simpl; apply Nat.eqb_refl].
  Qed.

  Lemma sfinish_inv c raised stops :
    SBase (s_log c) (s_queue c) (s_workers c) ->
    (forall w, map to3 (delivered w (s_log c)) = ev_of (fw w (gotten (s_log c)))) ->
    joins (s_log c) = stopsq (gotten (s_log c)) ->
    length (s_workers c) = K ->
    raised = raise_expected (s_log c) ->
    stops = (if raised then unreaped_of K (joins (s_log c)) else []) ->
    (raised = false -> unreaped_of K (joins (s_log c)) = []) ->
    SInv (sfinish c raised stops).
  Proof.
    intros HB Hd Hj HL Hr Hs Hu.
    assert (Hjd : forall w todo, nth_error (s_workers c) w = Some todo -> memb w (joins (s_log c)) = true -> todo = []).
    { intros w todo Hn Hm. rewrite Hj in Hm. apply stopsq_In in Hm. exact (popped_done _ _ _ w todo HB Hm Hn). }
    constructor; unfold pend_status, pend_join; simpl; try exact I.
    - exact HB.
    - intro w. rewrite app_nil_r. apply Hd.
    - rewrite app_nil_r. exact Hj.
    - rewrite map_length. repeat split; try assumption.
      + rewrite forallb_map. apply forallb_forall. intros todo Hin. rewrite negb_involutive.
        apply In_nth_error in Hin as [v Hv]. rewrite (Hjd v todo Hv); [reflexivity|].
        apply (unreaped_nil_all _ _ (Hu H)). rewrite <- HL. apply nth_error_Some. congruence.
      + exact (Hu H).
      + intros w Hw. rewrite nth_error_map in Hw. destruct (nth_error (s_workers c) w) as [todo|] eqn:En; [|discriminate].
        destruct (memb w (joins (s_log c))) eqn:Em; [|reflexivity]. rewrite (Hjd w todo En Em) in Hw. discriminate.
  Qed.

  (* what is known right after k workers have been started and nothing else has happened in main *)
  Lemma after_spawn_inv c k :
    SBase (s_log c) (s_queue c) (s_workers c) ->
    length (s_workers c) = k -> k <= n -> (forall m, si_mt_raise i = Some m -> k <= m) ->
    gotten (s_log c) = [] -> (forall w, delivered w (s_log c) = []) -> joins (s_log c) = [] ->
    has_intr (s_log c) = false -> status_raised (s_log c) = false ->
    s_raised c = false -> s_stops c = [] -> s_unreaped c = seq 0 k ->
    SInv (safter_spawn i c k).
  Proof.
    intros HB HL Hkn Hmt Hg Hd Hj Hi Hs Hr Hst Hu.
    assert (Hd0 : forall w, map to3 (delivered w (s_log c)) = ev_of (fw w (gotten (s_log c))))
      by (intro w; rewrite Hd, Hg; reflexivity).
    assert (Hj0 : joins (s_log c) = stopsq (gotten (s_log c))) by (rewrite Hj, Hg; reflexivity).
    unfold safter_spawn. fold n.
    pose proof (after_spawn_cases k n (si_mt_raise i) Hkn Hmt) as Hc. fold K in Hc.
    destruct Hc as [(-> & EK & Hnr)|(-> & [(-> & HK')|(-> & EK & Hnr)])].
    - apply sfinish_inv; try assumption; try discriminate.
      + congruence.
      + unfold raise_expected. rewrite Hnr. reflexivity.
      + rewrite Hj, unreaped_of_nil, EK. exact Hu.
    - constructor; unfold pend_status, pend_join; simpl; auto.
      + intro w. rewrite app_nil_r. apply Hd0.
      + rewrite app_nil_r. exact Hj0.
      + rewrite Hg, HL. simpl. rewrite unreaped_of_nil. auto.
    - destruct (s_unreaped c) as [|u us] eqn:Eu.
      + assert (Hk0 : k = 0) by (rewrite <- (seq_length k 0), <- Hu; reflexivity).
        apply sfinish_inv; try assumption; try reflexivity.
        * congruence.
        * unfold raise_expected. rewrite Hnr, Hi, Hs. reflexivity.
        * intros _. rewrite Hj, EK, Hk0. reflexivity.
      + constructor; unfold pend_status, pend_join; simpl; auto.
        * intro w. rewrite app_nil_r. apply Hd0.
        * rewrite app_nil_r. exact Hj0.
        * repeat split; [congruence | exact Hnr | rewrite Eu; discriminate].
        * rewrite Hg, HL. simpl. rewrite unreaped_of_nil, <- Hu, Eu. auto.
  Qed.

  Lemma sinit_inv : SInv (sinit i).
  Proof.
    unfold sinit. apply after_spawn_inv; simpl; try reflexivity; try lia.
    constructor; simpl; try reflexivity; try lia; try constructor.
    intros [|w] todo H; discriminate.
  Qed.

  Lemma sstep_worker_inv c w c' : SInv c -> sstep_worker c w = Some c' -> SInv c'.
  Proof.
    intros [HB Hdl Hjo Hps Hph Hrun]. unfold sstep_worker.
    destruct (nth_error (s_workers c) w) as [[|q todo]|] eqn:Hn; try discriminate.
    intro H; injection H as <-. destruct (worker_ev_readers (s_log c) (S w) (CPut q) (Nat.neq_succ_0 w) I) as (R1 & R2 & R3 & R4 & R5 & _).
    constructor; unfold pend_status, pend_join, raise_expected, slog in *; cbn [s_log s_queue s_main s_workers s_unreaped s_raised s_stops s_live];
      rewrite ?length_upd, ?R1, ?R2, ?R4, ?R5; try assumption.
    - apply sbase_put; assumption.
    - intro v. rewrite R3. apply Hdl.
  Qed.

  Lemma sstep_spawn_inv c j c' : SInv c -> s_main c = SMSpawn j -> sstep_main i c = Some c' -> SInv c'.
  Proof.
    intros [HB Hdl Hjo Hps Hph Hrun] Em. unfold sstep_main. unfold pend_status, pend_join in *. rewrite Em in *.
    destruct (nth_error (si_suites i) j) as [s|] eqn:Es; [|discriminate]. intro H; injection H as <-.
    destruct Hph as (Hj & HjK & Hg). destruct Hrun as (Hr & Hst & Hi & Hsr & Hu).
    assert (Hjn : j < n) by (apply nth_error_Some; congruence).
    assert (Hdn : forall w, delivered w (s_log c) = []).
    { intro w. specialize (Hdl w). rewrite Hg in Hdl. simpl in Hdl. apply app_eq_nil in Hdl as [Hd _].
      destruct (delivered w (s_log c)); [reflexivity | discriminate]. }
    assert (Hjn0 : joins (s_log c) = []) by (rewrite Hg in Hjo; apply app_eq_nil in Hjo as [Hd _]; exact Hd).
    subst j. apply after_spawn_inv; simpl; snoc_main_readers; auto.
    - apply sbase_spawn; assumption.
    - rewrite app_length. simpl. lia.
    - intros m Hm. apply (started_mt_bound _ n _ m HjK Hm).
    - intro w. rewrite delivered_snoc. simpl. rewrite app_nil_r. apply Hdn.
    - change (0 :: seq 1 ?k) with (seq 0 (S k)). rewrite Hu, Hg. simpl stopsq. rewrite unreaped_of_nil, seq_S. reflexivity.
  Qed.

  (* while main is reaping (SMGet, SMStatus, SMJoin) every sub-suite has been started, so the unreaped workers
     the configuration keeps are those of the statement *)
  Lemma unreaped_joins c : length (s_workers c) = K -> joins (s_log c) = stopsq (gotten (s_log c)) ->
    s_unreaped c = unreaped_of (length (s_workers c)) (stopsq (gotten (s_log c))) ->
    s_unreaped c = unreaped_of K (joins (s_log c)).
  Proof. intros HL Hj Hu. rewrite Hu, Hj, HL. reflexivity. Qed.

  Lemma sstep_get_inv c c' : SInv c -> s_main c = SMGet -> sstep_main i c = Some c' -> SInv c'.
  Proof.
    intros [HB Hdl Hjo Hps Hph Hrun] Em. unfold sstep_main. unfold pend_status, pend_join in *. rewrite Em in *.
    destruct Hph as (HwK & Hmt & Hune). destruct Hrun as (Hr & Hst & Hi & Hsr & Hu).
    simpl in Hdl. rewrite app_nil_r in Hjo.
    assert (Hdl' : forall w, map to3 (delivered w (s_log c)) = ev_of (fw w (gotten (s_log c))))
      by (intro w0; rewrite <- (Hdl w0); symmetry; apply app_nil_r).
    destruct (option_eqb Nat.eqb (si_get_intr i) (Some (s_gets c))).
    - intro H; injection H as <-. apply sfinish_inv; simpl; try discriminate.
      + apply (sbase_main_ev _ _ _ _ CGetIntr HB); reflexivity.
      + intro w. snoc_main_readers. apply Hdl'.
      + snoc_main_readers. exact Hjo.
      + exact HwK.
      + unfold raise_expected. snoc_main_readers. rewrite !orb_true_r. reflexivity.
      + snoc_main_readers. apply unreaped_joins; assumption.
    - destruct (s_queue c) as [|q rest] eqn:Eq; [discriminate|]. intro H; injection H as <-.
      assert (Hqlt : qowner q < length (s_workers c)).
      { pose proof (sb_qown _ _ _ HB) as Hqo. apply Forall_app in Hqo as [_ Hqo]. inversion Hqo; assumption. }
      constructor; unfold pend_status, pend_join; simpl.
      + apply (sbase_main_ev _ _ _ _ (CGet q) HB); reflexivity.
      + intro w. snoc_main_readers. rewrite fw_app, ev_of_app, <- Hdl'. f_equal.
        destruct q as [w0|w0|w0|w0 i0 s0 o0]; simpl; destruct (w0 =? w); reflexivity.
      + snoc_main_readers. rewrite stopsq_app, <- Hjo. destruct q; simpl; rewrite ?app_nil_r; reflexivity.
      + destruct q as [w0|w0|w0|w0 id st own ts]; simpl in *; try exact I; try exact Hqlt.
        exists w0, id, st, own, ts. split; [reflexivity | exact Hqlt].
      + destruct q; simpl; repeat split; auto.
      + snoc_main_readers. rewrite stopsq_app. destruct q; simpl; rewrite ?app_nil_r; repeat split; auto.
        rewrite Hu. apply unreaped_remove.
  Qed.

  Lemma sstep_status_inv c q c' : SInv c -> s_main c = SMStatus q -> sstep_main i c = Some c' -> SInv c'.
  Proof.
    intros [HB Hdl Hjo Hps Hph Hrun] Em. unfold sstep_main. unfold pend_status, pend_join in *. rewrite Em in *.
    destruct Hph as (HwK & Hmt & Hune). destruct Hrun as (Hr & Hst & Hi & Hsr & Hu).
    destruct Hps as (w & id & st & own & ts & -> & Hw). rewrite app_nil_r in Hjo.
    intro H; injection H as <-.
    set (b := memb (s_mcalls c) (si_main_faults i)).
    set (c1 := {| s_log := slog c 0 (CStatus w id st own ts b); s_queue := s_queue c; s_main := SMGet;
                  s_unreaped := s_unreaped c; s_workers := s_workers c; s_gets := s_gets c;
                  s_mcalls := S (s_mcalls c); s_raised := s_raised c; s_stops := s_stops c; s_live := s_live c |}).
    assert (HB1 : SBase (s_log c1) (s_queue c1) (s_workers c1)).
    { apply (sbase_main_ev _ _ _ _ (CStatus w id st own ts b) HB); [|reflexivity].
      simpl. apply Nat.ltb_lt. lia. }
    assert (HD : forall v, map to3 (delivered v (s_log c1)) = ev_of (fw v (gotten (s_log c1)))).
    { intro v. simpl. snoc_main_readers.
      rewrite map_app, <- (Hdl v). f_equal. simpl.
      destruct (w =? v); reflexivity. }
    assert (HJ : joins (s_log c1) = stopsq (gotten (s_log c1))) by (simpl; snoc_main_readers; exact Hjo).
    destruct b eqn:Eb.
    - apply sfinish_inv; try assumption; try discriminate.
      + unfold raise_expected. simpl. snoc_main_readers. rewrite !orb_true_r. reflexivity.
      + apply (unreaped_joins c1); try assumption. simpl. snoc_main_readers. exact Hu.
    - constructor; unfold pend_status, pend_join; try assumption; simpl; try exact I.
      + intro v. rewrite app_nil_r. apply HD.
      + rewrite app_nil_r. exact HJ.
      + auto.
      + snoc_main_readers. auto.
  Qed.

  Lemma sstep_join_inv c w c' : SInv c -> s_main c = SMJoin w -> sstep_main i c = Some c' -> SInv c'.
  Proof.
    intros [HB Hdl Hjo Hps Hph Hrun] Em. unfold sstep_main. unfold pend_status, pend_join in *. rewrite Em in *.
    destruct (nth_error (s_workers c) w) as [todo|] eqn:En; [|discriminate].
    destruct (sw_done todo) eqn:Ed; [|discriminate]. intro H; injection H as <-.
    destruct Hph as (HwK & Hmt & _). destruct Hrun as (Hr & Hst & Hi & Hsr & Hu).
    assert (Hdl' : forall w, map to3 (delivered w (s_log c)) = ev_of (fw w (gotten (s_log c))))
      by (intro w0; rewrite <- (Hdl w0); symmetry; apply app_nil_r).
    assert (HB1 : SBase (slog c 0 (CJoin w)) (s_queue c) (s_workers c)).
    { apply (sbase_main_ev _ _ _ _ (CJoin w) HB); [|reflexivity]. simpl. apply Nat.ltb_lt. lia. }
    simpl. destruct (s_unreaped c) as [|u us] eqn:Eu.
    - (* the last one: run() returns *)
      apply sfinish_inv; simpl; try assumption.
      + intro v. snoc_main_readers. apply Hdl'.
      + snoc_main_readers. exact Hjo.
      + unfold raise_expected. snoc_main_readers. rewrite Hmt, Hi, Hsr. reflexivity.
      + reflexivity.
      + intros _. snoc_main_readers. rewrite Hjo, <- HwK. symmetry. exact Hu.
    - constructor; unfold pend_status, pend_join; simpl; try assumption; try exact I.
      + intro v. snoc_main_readers. apply Hdl'.
      + snoc_main_readers. exact Hjo.
      + repeat split; auto. discriminate.
      + snoc_main_readers. auto.
  Qed.

  Lemma sstep_inv c t c' : SInv c -> sstep i c t = Some c' -> SInv c'.
  Proof.
    intros HI. destruct t as [|w]; simpl.
    - destruct (s_main c) eqn:Em.
      + eapply sstep_spawn_inv; eauto.
      + eapply sstep_get_inv; eauto.
      + eapply sstep_status_inv; eauto.
      + eapply sstep_join_inv; eauto.
      + unfold sstep_main. rewrite Em. discriminate.
    - eapply sstep_worker_inv; eauto.
  Qed.

  Definition sum_from (j : nat) : nat := fold_right (fun s a => sweight s + a) 0 (skipn j (si_suites i)).
  Definition smw (m : smain) : nat :=
    match m with SMDone => 0 | SMGet => 1 | SMStatus _ | SMJoin _ => 2 | SMSpawn j => 1 + sum_from j end.
  Definition todo_sum (l : list (list qitem)) : nat := fold_right (fun t a => length t + a) 0 l.
  Definition smeasure (c : sconf) : nat := smw (s_main c) + 3 * length (s_queue c) + 4 * todo_sum (s_workers c).

  Lemma sum_from_nth j s : nth_error (si_suites i) j = Some s -> sum_from j = sweight s + sum_from (S j).
  Proof. apply (lsum_skipn sweight). Qed.
  Lemma todo_sum_app a b : todo_sum (a ++ b) = todo_sum a + todo_sum b.
  Proof. apply (lsum_app (@length qitem)). Qed.

  Lemma safter_spawn_bound c k :
    smeasure (safter_spawn i c k) <= 1 + sum_from k + 3 * length (s_queue c) + 4 * todo_sum (s_workers c).
  Proof.
    unfold safter_spawn, smeasure. destruct (option_eqb Nat.eqb (si_mt_raise i) (Some k)); [simpl; lia|].
    destruct (k <? length (si_suites i)); [simpl; lia|]. destruct (s_unreaped c); simpl; lia.
  Qed.

  Lemma sstep_measure c t c' : sstep i c t = Some c' -> smeasure c' < smeasure c.
  Proof.
    destruct t as [|w]; simpl.
    - unfold sstep_main. destruct (s_main c) eqn:Em.
      + destruct (nth_error (si_suites i) k) as [s|] eqn:Es; [|discriminate]. intro H; injection H as <-.
        eapply Nat.le_lt_trans; [apply safter_spawn_bound|].
        cbn [s_queue s_workers]. rewrite todo_sum_app. unfold smeasure. rewrite Em. cbn [smw todo_sum fold_right].
        rewrite (sum_from_nth _ _ Es).
        pose proof (worker_puts_length (sroute i k) k (si_base i) s). unfold sweight. lia.
      + destruct (option_eqb Nat.eqb (si_get_intr i) (Some (s_gets c))).
        * intro H; injection H as <-. unfold smeasure. rewrite Em. simpl. lia.
        * destruct (s_queue c) as [|q rest] eqn:Eq; [discriminate|]. intro H; injection H as <-.
          unfold smeasure. rewrite Em, Eq. simpl. destruct q; simpl; lia.
      + destruct q; try discriminate. intro H; injection H as <-.
        unfold smeasure. rewrite Em. destruct (memb (s_mcalls c) (si_main_faults i)); simpl; lia.
      + destruct (nth_error (s_workers c) w) as [todo|]; [|discriminate].
        destruct (sw_done todo); [|discriminate]. intro H; injection H as <-.
        unfold smeasure. rewrite Em. simpl. destruct (s_unreaped c); simpl; lia.
      + discriminate.
    - unfold sstep_worker. destruct (nth_error (s_workers c) w) as [[|q todo]|] eqn:En; try discriminate.
      intro H; injection H as <-. unfold smeasure. cbn [s_main s_queue s_workers]. rewrite app_length. simpl length.
      pose proof (lsum_upd (@length qitem) (s_workers c) 1 w (q :: todo) todo En) as Hu.
      change (lsum (@length qitem)) with todo_sum in Hu. simpl length in Hu. lia.
  Qed.

  Lemma sinit_measure : smeasure (sinit i) <= sfuel i.
  Proof.
    unfold sinit. eapply Nat.le_trans; [apply safter_spawn_bound|].
    cbn [s_queue s_workers]. unfold sum_from, sfuel. simpl. lia.
  Qed.

  Lemma slive c : SInv c -> sall_done c = false -> exists t, t < snthr c /\ sstep i c t <> None.
  Proof.
    intros [HB Hdl Hjo Hps Hph Hrun] Hnd. unfold sall_done in Hnd.
    destruct (forallb sw_done (s_workers c)) eqn:Ew.
    - (* every worker has finished: main can move *)
      rewrite andb_true_r in Hnd. exists 0. split; [unfold snthr; lia|]. simpl.
      unfold smain_done in Hnd. unfold sstep_main. destruct (s_main c) eqn:Em; try discriminate.
      + destruct Hph as (Hj & HjK & _). apply started_lt_n in HjK.
        destruct (nth_error (si_suites i) k) eqn:E; [discriminate | apply nth_error_None in E; fold n in E; lia].
      + destruct (option_eqb Nat.eqb (si_get_intr i) (Some (s_gets c))); [discriminate|].
        destruct Hph as (HwK & Hmt & Hune). destruct Hrun as (_ & _ & _ & _ & Hu).
        destruct (s_unreaped c) as [|u us] eqn:Eu; [contradiction|].
        (* the unreaped worker u is done, so its stopTestRun is on the queue *)
        assert (Hin : In u (unreaped_of (length (s_workers c)) (stopsq (gotten (s_log c))))) by (rewrite <- Hu; left; reflexivity).
        unfold unreaped_of in Hin. apply filter_In in Hin as [Hseq Hnot]. apply in_seq in Hseq.
        destruct (nth_error_lt (s_workers c) u) as [todo En]; [lia|].
        pose proof (forallb_nth _ _ _ _ Ew En) as Hd. destruct todo; [|discriminate].
        destruct (sb_workers _ _ _ HB u _ En) as (s & Hs & E). rewrite app_nil_r in E.
        assert (Hq : In (QStop u) (fw u (gotten (s_log c) ++ s_queue c))).
        { rewrite (sb_fifo _ _ _ HB), E. unfold worker_puts. apply in_or_app. right. left. reflexivity. }
        apply filter_In in Hq as [Hq _]. apply in_app_or in Hq as [Hq|Hq].
        * apply stopsq_In in Hq. rewrite Hq in Hnot. discriminate.
        * destruct (s_queue c); [contradiction | discriminate].
      + destruct Hps as (w & id & st & own & ts & -> & _). discriminate.
      + destruct (nth_error_lt (s_workers c) w Hps) as [todo En]. rewrite En, (forallb_nth _ _ _ _ Ew En). discriminate.
    - (* a worker has something to put *)
      destruct (forallb_false_nth _ _ Ew) as (w & todo & Hw & Hd).
      exists (S w). split.
      + unfold snthr. assert (w < length (s_workers c)) by (apply nth_error_Some; congruence). lia.
      + simpl. unfold sstep_worker. rewrite Hw. destruct todo; discriminate.
  Qed.

  Lemma srun_inv : (exists s, srun i = fold_left (gstep' (sstep i)) s (sinit i)) /\ SInv (srun i) /\ sall_done (srun i) = true.
  Proof.
    apply (grun_done (sstep i) snthr smeasure sstep_measure SInv sall_done sstep_inv slive); [apply sinit_inv|].
    eapply Nat.le_trans; [apply gfold_measure; exact sstep_measure | apply sinit_measure].
  Qed.

  (* delivery: what main has passed on for worker w, what it holds, what is queued and what w has still
     to put make up what w emits *)
  Lemma sinv_delivery c w todo s : SInv c -> nth_error (s_workers c) w = Some todo -> nth_error (si_suites i) w = Some s ->
    map to3 (delivered w (s_log c)) ++ (ev_of (fw w (pend_status c)) ++ ev_of (fw w (s_queue c)) ++ ev_of todo)
    = ev_of (emits (sroute i w) w base s).
  Proof.
    intros HI En Hs. destruct (sb_workers _ _ _ (sv_base c HI) w todo En) as (s' & Hs' & E).
    rewrite Hs in Hs'. injection Hs' as <-.
    assert (Ew : ev_of (worker_puts (sroute i w) w base s) = ev_of (emits (sroute i w) w base s))
      by (unfold worker_puts; rewrite ev_of_app; apply app_nil_r).
    rewrite app_assoc, (sv_deliv c HI w), <- Ew, <- E, ev_of_app, <- (sb_fifo _ _ _ (sv_base c HI) w), fw_app,
      ev_of_app, <- app_assoc. reflexivity.
  Qed.

  (* ... and after a normal return only the first part is left *)
  Lemma sinv_returned c w todo : SInv c -> s_main c = SMDone -> s_raised c = false ->
    nth_error (s_workers c) w = Some todo -> fw w (pend_status c) = [] /\ fw w (s_queue c) = [] /\ todo = [].
  Proof.
    intros HI Em Hr En. pose proof (sv_phase c HI) as Hp. pose proof (sv_joins c HI) as Hjo.
    unfold pend_status, pend_join in *. rewrite Em in *. destruct Hp as (_ & _ & _ & HwK & Hnr & _).
    destruct (Hnr Hr) as [_ Hun]. rewrite app_nil_r in Hjo.
    assert (Hm : memb w (joins (s_log c)) = true).
    { apply (unreaped_nil_all _ _ Hun). rewrite <- HwK. apply nth_error_Some. congruence. }
    rewrite Hjo in Hm. apply stopsq_In in Hm.
    pose proof (popped_done _ _ _ w todo (sv_base c HI) Hm En) as ->.
    split; [reflexivity|]. split; [|reflexivity].
    destruct (sb_workers _ _ _ (sv_base c HI) w [] En) as (s & Hs & E). rewrite app_nil_r in E.
    apply (stop_is_last (sroute i w) w base s (fw w (gotten (s_log c)))).
    - rewrite <- fw_app, (sb_fifo _ _ _ (sv_base c HI) w). exact E.
    - apply filter_In. split; [exact Hm | simpl; apply Nat.eqb_refl].
  Qed.
End Stream.

Lemma tstamp_eqb_spec a b : tstamp_eqb a b = true <-> a = b.
Proof. destruct a, b; simpl; eqb_components ltac:(apply Nat.eqb_eq). Qed.
Lemma rcode_eqb_spec a b : rcode_eqb a b = true <-> a = b.
Proof. apply pair_eqb_spec; apply onat_eqb_spec. Qed.

Lemma ev3_eqb_spec a b : ev3_eqb a b = true <-> a = b.
Proof.
  destruct a as [[[a1 a2] a3] a4], b as [[[b1 b2] b3] b4]. unfold ev3_eqb. simpl.
  eqb_components ltac:(first [apply Nat.eqb_eq | apply rcode_eqb_spec | apply tstamp_eqb_spec]).
Qed.

(* whatever a worker emits carries a timestamp: TimestampingStreamResult stamps what has none *)
Lemma emits_has_ts rt w base s : Forall (fun e : nat * nat * rcode * tstamp => has_ts (snd e) = true) (ev_of (emits rt w base s)).
Proof.
  induction s as [|[id st own a|] r IH]; simpl.
  - constructor.
  - constructor; [destruct a; reflexivity | exact IH].
  - destruct base; simpl; repeat constructor.
Qed.

Lemma emits_clean rt w base s : ev_of (emits rt w base s) = sent_events rt base s.
Proof.
  induction s as [|[id st own a|] r IH]; simpl; [reflexivity | rewrite IH; reflexivity | destruct base; reflexivity].
Qed.

Lemma prefix_has_ts (d : list (nat * nat * rcode * tstamp * bool)) rest l :
  map to3 d ++ rest = l -> Forall (fun e : nat * nat * rcode * tstamp => has_ts (snd e) = true) l ->
  forallb (fun x => has_ts (snd (fst x))) d = true.
Proof.
  intros <- H. apply Forall_app in H as [H _]. apply forallb_forall. intros x Hx.
  rewrite Forall_forall in H. apply (H (to3 x)). apply in_map. exact Hx.
Qed.

Lemma sinv_delivered i c w s : SInv i c -> nth_error (si_suites i) w = Some s -> w < length (s_workers c) ->
  (forall x, In x (delivered w (s_log c)) -> has_ts (snd (fst x)) = true)
  /\ exists rest, map to3 (delivered w (s_log c)) ++ rest = ev_of (emits (sroute i w) w (si_base i) s)
       /\ (s_main c = SMDone -> s_raised c = false -> rest = []).
Proof.
  intros HI Hs Hw. destruct (nth_error_lt _ _ Hw) as [todo En].
  pose proof (sinv_delivery i c w todo s HI En Hs) as Hrest. split.
  - intros x Hx.
    pose proof (prefix_has_ts _ _ _ Hrest (emits_has_ts (sroute i w) w (si_base i) s)) as Ht.
    rewrite forallb_forall in Ht. apply Ht. exact Hx.
  - eexists. split; [exact Hrest|]. intros Em Hr.
    destruct (sinv_returned i c w todo HI Em Hr En) as (-> & -> & ->). reflexivity.
Qed.

Lemma is_prefix_app {A} (eqb : A -> A -> bool) (Hr : forall x, eqb x x = true) a b : is_prefix eqb a (a ++ b) = true.
Proof. induction a as [|x a IH]; simpl; [reflexivity | rewrite Hr, IH; reflexivity]. Qed.

Lemma nth_error_firstn {A} (l : list A) k w x : nth_error (firstn k l) w = Some x <-> w < k /\ nth_error l w = Some x.
Proof.
  revert k w. induction l as [|a l IH]; intros [|k] [|w]; simpl; try (split; [discriminate | intros [H1 H2]; (discriminate || lia)]).
  - split; [intro H; split; [lia | exact H] | intros [_ H]; exact H].
  - rewrite IH. split; intros [H1 H2]; (split; [lia | exact H2]).
Qed.

Lemma common_done n mt o :
  let K := started n mt in
  o_deadlock o = false -> forallb (own_thread K) (o_trace o) = true -> spawns (o_trace o) = seq 0 K ->
  length (o_live o) = K ->
  o_raised o = (mt_raises n mt || has_intr (o_trace o) || status_raised (o_trace o)) ->
  (o_raised o = true -> forallb (fun w => w <? K) (o_stops o) = true) ->
  (o_raised o = true -> existsb (fun b => b) (main_stops (o_trace o)) = false ->
     o_stops o = unreaped_of K (joins (o_trace o))) ->
  (o_raised o = false -> o_stops o = [] /\ forallb negb (o_live o) = true) ->
  (forall w, nth_error (o_live o) w = Some true -> memb w (joins (o_trace o)) = false) ->
  common_okb n mt o = true.
Proof.
  intros K Hd Hown Hsp Hlive Hr Hlt Hst Hnr HL. unfold common_okb. fold K.
  rewrite Hd, Hown, Hsp, (eqb_spec_refl _ nats_eqb_spec), Hlive, Nat.eqb_refl, <- Hr, (eqb_spec_refl _ bool_eqb_spec).
  cbn [negb andb]. destruct (o_raised o); cbn [orb andb].
  - rewrite (Hlt eq_refl). cbn [andb].
    destruct (existsb (fun b : bool => b) (main_stops (o_trace o))) eqn:Ee; [reflexivity|]. rewrite (Hst eq_refl eq_refl). simpl.
    apply forallb_idx_spec. intros w b Hn. simpl. destruct b; [|reflexivity]. simpl.
    apply memb_In. unfold unreaped_of. apply filter_In. split; [|rewrite (HL w Hn); reflexivity].
    apply in_seq. split; [lia|]. simpl. rewrite <- Hlive. apply nth_error_Some. congruence.
  - destruct (Hnr eq_refl) as [-> ->]. reflexivity.
Qed.

Theorem stream_meets_spec : forall i, spec_okb (IStream i) (model (IStream i)) = true.
Proof.
  intro i. destruct (srun_inv i) as (_ & HI & Hd). unfold spec_okb, model. set (c := srun i) in *.
  pose proof (sv_base i c HI) as HB. pose proof (sv_phase i c HI) as Hph.
  pose proof Hd as Hd'. unfold sall_done in Hd'. apply andb_true_iff in Hd' as [Hmd Hwd].
  unfold smain_done in Hmd. destruct (s_main c) eqn:Em; try discriminate.
  destruct Hph as (Hr & Hst & Hlive & HwK & Hnr & HL).
  apply andb_true_iff; split.
  - apply common_done; cbn [o_trace o_raised o_live o_stops o_deadlock]; auto.
    + rewrite Hd. reflexivity.
    + apply (sb_own i _ _ _ HB).
    + rewrite (sb_spawns i _ _ _ HB), HwK. reflexivity.
    + intros E. rewrite Hst, E. apply unreaped_lt.
    + intros E _. rewrite Hst, E. reflexivity.
    + intros E. rewrite Hst, E. split; [reflexivity | apply (Hnr E)].
  - cbn [o_trace o_raised].
    apply forallb_idx_spec. intros w s Hn. simpl.
    apply nth_error_firstn in Hn as [HwKlt Hn].
    destruct (nth_error_lt (s_workers c) w) as [todo Enw]; [rewrite HwK; exact HwKlt|].
    pose proof (sinv_delivery i c w todo s HI Enw Hn) as E.
    unfold stream_worker_okb. fold (sroute i w).
    rewrite (prefix_has_ts _ _ _ E (emits_has_ts (sroute i w) w (si_base i) s)). simpl.
    change (map (fun x => fst x) (delivered w (s_log c))) with (map to3 (delivered w (s_log c))).
    rewrite <- (emits_clean (sroute i w) w (si_base i) s), <- E, (is_prefix_app _ (eqb_spec_refl _ ev3_eqb_spec)). simpl.
    destruct (s_raised c) eqn:Er; [reflexivity|]. simpl.
    destruct (sinv_returned i c w todo HI Em Er Enw) as (-> & -> & ->). simpl.
    rewrite app_nil_r, map_length. apply Nat.eqb_refl.
Qed.
