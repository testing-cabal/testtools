(* The harness scheduler of Model/Concur.v (Tfr's pick_from / sched_step / drain / step' are its instance at
   Tfr.step by conversion), for any step function that decreases a measure. *)
From TT Require Import Lib.Base Model.Tfr Model.Concur.

Section SchedFacts.
  Context {C : Type}.
  Variable stepf : C -> tid -> option C.
  Variable nthr : C -> nat.
  Variable m : C -> nat.
  Hypothesis m_step : forall c t c', stepf c t = Some c' -> m c' < m c.

  Lemma gpick_some c cands : forall c', gpick_from stepf c cands = Some c' -> exists t, stepf c t = Some c'.
  Proof.
    induction cands as [|t r IH]; intros c' H; simpl in H; [discriminate|].
    destruct (stepf c t) eqn:E; [injection H as <-; eauto | apply IH; exact H].
  Qed.

  Lemma gpick_none c cands : gpick_from stepf c cands = None -> forall t, In t cands -> stepf c t = None.
  Proof.
    induction cands as [|u r IH]; intros H t Hin; simpl in *; [contradiction|].
    destruct (stepf c u) eqn:E; [discriminate|]. destruct Hin as [<-|Hin]; [exact E | apply IH; assumption].
  Qed.

  Lemma gstep'_some c t c' : stepf c t = Some c' -> gstep' stepf c t = c'.
  Proof. intro H. unfold gstep'. rewrite H. reflexivity. Qed.

  Lemma gfold_is_schedule sched : forall c, exists s,
    fold_left (gsched_step stepf nthr) sched c = fold_left (gstep' stepf) s c.
  Proof.
    induction sched as [|t r IH]; intro c; simpl; [exists []; reflexivity|].
    destruct (IH (gsched_step stepf nthr c t)) as [s2 E2]. rewrite E2. unfold gsched_step.
    destruct (gpick_from stepf c (rot (nthr c) t)) as [c'|] eqn:E; [|exists s2; reflexivity].
    destruct (gpick_some _ _ _ E) as [u Hu]. exists (u :: s2). simpl. rewrite (gstep'_some _ _ _ Hu). reflexivity.
  Qed.

  Lemma gdrain_is_schedule fuel : forall c, exists s, gdrain stepf nthr fuel c = fold_left (gstep' stepf) s c.
  Proof.
    induction fuel as [|k IH]; intro c; simpl; [exists []; reflexivity|].
    destruct (gpick_from stepf c (seq 0 (nthr c))) as [c'|] eqn:E; [|exists []; reflexivity].
    destruct (gpick_some _ _ _ E) as [u Hu]. destruct (IH c') as [s Es].
    exists (u :: s). simpl. rewrite (gstep'_some _ _ _ Hu). exact Es.
  Qed.

  Lemma gsteps_measure s : forall c, m (fold_left (gstep' stepf) s c) <= m c.
  Proof.
    induction s as [|t s IH]; intro c; simpl; [lia|]. specialize (IH (gstep' stepf c t)).
    destruct (stepf c t) eqn:E; [|unfold gstep' in *; rewrite E in *; exact IH].
    rewrite (gstep'_some _ _ _ E) in *. apply m_step in E. lia.
  Qed.

  Lemma gfold_measure sched c : m (fold_left (gsched_step stepf nthr) sched c) <= m c.
  Proof. destruct (gfold_is_schedule sched c) as [s ->]. apply gsteps_measure. Qed.

  Lemma gdrain_stuck fuel : forall c, m c <= fuel ->
    forall t, t < nthr (gdrain stepf nthr fuel c) -> stepf (gdrain stepf nthr fuel c) t = None.
  Proof.
    induction fuel as [|k IH]; intros c Hm; simpl.
    - intros t _. destruct (stepf c t) eqn:E; [apply m_step in E; lia | reflexivity].
    - destruct (gpick_from stepf c (seq 0 (nthr c))) as [c'|] eqn:E.
      + destruct (gpick_some _ _ _ E) as [u Hu]. apply IH. apply m_step in Hu. lia.
      + intros t Ht. apply (gpick_none _ _ E). apply in_seq. lia.
  Qed.

  Variable P : C -> Prop.
  Variable fin : C -> bool.
  Hypothesis P_step : forall c t c', P c -> stepf c t = Some c' -> P c'.
  Hypothesis P_live : forall c, P c -> fin c = false -> exists t, t < nthr c /\ stepf c t <> None.

  Lemma gsteps_P sched : forall c, P c -> P (fold_left (gstep' stepf) sched c).
  Proof.
    induction sched as [|t s IH]; intros c H; simpl; [exact H|]. apply IH. unfold gstep'.
    destruct (stepf c t) eqn:E; [eapply P_step; eauto | exact H].
  Qed.

  Theorem grun_done fuel sched c : P c -> m (fold_left (gsched_step stepf nthr) sched c) <= fuel ->
    let r := gdrain stepf nthr fuel (fold_left (gsched_step stepf nthr) sched c) in
    (exists s, r = fold_left (gstep' stepf) s c) /\ P r /\ fin r = true.
  Proof.
    intros HP Hm r.
    assert (Hs : exists s, r = fold_left (gstep' stepf) s c).
    { destruct (gfold_is_schedule sched c) as [s1 E1]. subst r. rewrite E1.
      destruct (gdrain_is_schedule fuel (fold_left (gstep' stepf) s1 c)) as [s2 E2].
      exists (s1 ++ s2). rewrite fold_left_app. exact E2. }
    assert (Hr : P r) by (destruct Hs as [s ->]; apply gsteps_P; exact HP).
    split; [exact Hs|]. split; [exact Hr|].
    destruct (fin r) eqn:Ef; [reflexivity|]. destruct (P_live r Hr Ef) as (t & Ht & Hne).
    exfalso. apply Hne. apply gdrain_stuck; assumption.
  Qed.
End SchedFacts.
