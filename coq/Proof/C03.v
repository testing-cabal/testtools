(* C03 - proofs: success only if nothing was raised; one exception maps through the first
   handler that claims it; no downgrade outside the delimited finding F2. *)
From TT Require Import Lib.Base Gen.Handlers Model.Run Spec.Run Spec.C03 Corr.C03 Proof.RunCore.

Theorem spec_okb_sound i o : spec_okb i o = true -> Spec i o.
Proof.
  unfold spec_okb, Spec. destruct (o_outs o) as [|k [|k' r]]; try discriminate.
  intros H. apply andb_true_iff in H as [H H3]. apply andb_true_iff in H as [H1 H2].
  exists k. split; [reflexivity|]. split; [|split].
  - intros ->. unfold success_okb in H1. destruct (raised_by_user (i_prog i)); [|discriminate].
    split; [reflexivity | now apply negb_true_iff in H1].
  - intros e E. unfold single_okb in H2. rewrite E in H2. apply outcome_eqb_spec in H2. now symmetry.
  - intros (e & Hin & He). unfold no_downgrade_okb in H3.
    assert (Ex : existsb (is_failure_or_error (i_prog i)) (raised (i_prog i)) = true)
      by (apply existsb_exists; exists e; split; assumption).
    rewrite Ex in H3. apply andb_true_iff in H3 as [A B]. split; [exact A | now apply negb_true_iff in B].
Qed.

(* from here on the machine; what is above needs nothing of it *)
From TT Require Import Proof.RunExtra Proof.RunTable Proof.RunVerdict.

Definition handlers_not_success (p : prog) : bool :=
  forallb (fun co => negb (outcome_eqb (snd co) OSuccess)) (user_handlers p).

Lemma outcome_of_no_success p e : handlers_not_success p = true -> outcome_of p e <> OSuccess.
Proof.
  intros W. unfold outcome_of, user_claim. destruct (find _ (user_handlers p)) as [co|] eqn:F.
  - apply find_some in F. destruct F as [Hin _]. unfold handlers_not_success in W.
    rewrite forallb_forall in W. specialize (W co Hin). intros E. rewrite E in W. discriminate.
  - unfold standard_outcome. set (c := cls_of e).
    destruct (subclass c CSkip), (subclass c CFail), (subclass c CXFail), (subclass c CUx); discriminate.
Qed.

Lemma model_obs i :
  model i = {| o_outs := [fst (verdict_of (i_prog i))]; o_ok := negb (unsuccessful (fst (verdict_of (i_prog i)))) |}.
Proof.
  unfold model. destruct (run_verdict (i_prog i) []) as (s & d & R & C & _).
  rewrite R. unfold outs_of. rewrite <- flat_map_calls, C by reflexivity.
  unfold was_successful. simpl. rewrite orb_false_r. reflexivity.
Qed.

Lemma verdict_reported p :
  skipped p = false -> fst (verdict_of p) = match reported p with Some e => outcome_of p e | None => OSuccess end.
Proof. intros S. rewrite (verdict_of_reported p S). now destruct (reported p). Qed.

Lemma raised_not_skipped p : raised p <> [] -> skipped p = false.
Proof. intros H. destruct (skipped p) eqn:S; [|reflexivity]. now rewrite (raised_skipped _ S) in H. Qed.

Lemma raised_nil p : skipped p = false -> (raised p = [] <-> raised_by_user p = [] /\ forced p = false).
Proof.
  intros S. unfold raised, forced_failure. rewrite S. cbn [negb andb]. split.
  - intros H. apply app_eq_nil in H as [H1 H2]. split; [exact H1|]. destruct (forced p); [discriminate | reflexivity].
  - now intros [-> ->].
Qed.

Lemma verdict_success p :
  handlers_not_success p = true -> skipped p = false ->
  (fst (verdict_of p) = OSuccess <-> raised_by_user p = [] /\ forced p = false).
Proof.
  intros W S. rewrite <- (raised_nil p S), (verdict_reported p S). unfold reported.
  destruct (raised p) as [|x r]; [tauto|]. split; [|discriminate].
  destruct (find _ (x :: r)); intros H; destruct (outcome_of_no_success _ _ W H).
Qed.

Lemma verdict_single p e : raised p = [e] -> fst (verdict_of p) = outcome_of p e.
Proof.
  intros E. rewrite verdict_reported by (apply raised_not_skipped; now rewrite E).
  unfold reported. rewrite E. cbn [find last]. now destruct (negb (claimed p e)).
Qed.

(* when somebody is responsible for every exception raised, the last one decides ("the last one wins") *)
Lemma verdict_all_claimed p :
  raised p <> [] -> forallb (claimed p) (raised p) = true ->
  fst (verdict_of p) = outcome_of p (last (raised p) (Exc CFail None)).
Proof.
  intros N All. rewrite verdict_reported by (apply raised_not_skipped, N). unfold reported.
  destruct (raised p) as [|x r]; [contradiction|].
  destruct (find _ (x :: r)) as [e|] eqn:F; [|reflexivity].
  apply find_some in F as [Hin Hb]. rewrite forallb_forall in All. rewrite (All e Hin) in Hb. discriminate.
Qed.

Lemma verdict_no_downgrade i :
  finding_F2 i = false -> existsb (is_failure_or_error (i_prog i)) (raised (i_prog i)) = true ->
  unsuccessful (fst (verdict_of (i_prog i))) = true.
Proof.
  unfold finding_F2. intros NF Ex. rewrite Ex in NF. cbn [andb] in NF.
  rewrite verdict_reported by (apply raised_not_skipped; intros E; now rewrite E in Ex). unfold reported.
  destruct (raised (i_prog i)) as [|x r]; [discriminate|].
  destruct (find (fun e => negb (claimed (i_prog i) e)) (x :: r)) as [e'|] eqn:F.
  - apply find_some in F as [_ F]. apply negb_true_iff in F.
    now rewrite (unclaimed_is_error (user_handlers _) e' F : outcome_of (i_prog i) e' = OErr).
  - assert (All : forallb (claimed (i_prog i)) (x :: r) = true).
    { apply forallb_forall. intros y Hy. pose proof (find_none _ _ F y Hy) as N. now apply negb_false_iff in N. }
    rewrite All in NF. now apply negb_false_iff in NF.
Qed.

Theorem model_meets_spec i : wf i = true -> finding_F2 i = false -> spec_okb i (model i) = true.
Proof.
  intros W NF. unfold wf in W. apply andb_true_iff in W as [_ Wh]. fold (handlers_not_success (i_prog i)) in Wh.
  rewrite model_obs. unfold spec_okb. cbn [o_outs o_ok]. set (o := fst (verdict_of (i_prog i))).
  apply andb_true_iff; split; [apply andb_true_iff; split|].
  - unfold success_okb. destruct o eqn:Eo; try reflexivity.
    destruct (skipped (i_prog i)) eqn:S; [unfold o, verdict_of in Eo; rewrite S in Eo; discriminate|].
    destruct (proj1 (verdict_success _ Wh S) Eo) as [-> ->]. reflexivity.
  - unfold single_okb. destruct (raised (i_prog i)) as [|x [|y r]] eqn:E; try reflexivity.
    apply outcome_eqb_spec, verdict_single, E.
  - unfold no_downgrade_okb. destruct (existsb _ _) eqn:Ex; [|reflexivity].
    fold o. rewrite negb_involutive, andb_diag. exact (verdict_no_downgrade i NF Ex).
Qed.

(* C03_success_iff, both directions (the converse needs the test not to be skip-decorated) *)
Theorem success_iff i :
  wf i = true -> skipped (i_prog i) = false ->
  (o_outs (model i) = [OSuccess] <-> raised_by_user (i_prog i) = [] /\ forced (i_prog i) = false).
Proof.
  intros W S. unfold wf in W. apply andb_true_iff in W as [_ Wh].
  rewrite model_obs, <- (verdict_success _ Wh S). cbn [o_outs]. split; [intros H; now injection H | now intros ->].
Qed.

(* the handler that decides for an exception: inserted handlers first, the latest insertion first,
   in list order; subclasses are instances; otherwise the standard mapping by class *)
Theorem dispatch_order p e :
  outcome_of p e = match find (fun co => isinstance e (fst co)) (rev (inserted p) ++ p_handlers p) with
                   | Some co => snd co
                   | None => standard_outcome (cls_of e)
                   end.
Proof. reflexivity. Qed.

Theorem outcome_reported i :
  skipped (i_prog i) = false ->
  o_outs (model i) = [match reported (i_prog i) with Some e => outcome_of (i_prog i) e | None => OSuccess end].
Proof.
  intros S. rewrite model_obs. cbn [o_outs]. now rewrite (verdict_reported _ S).
Qed.
Theorem outcome_skip_decorated i :
  skipped (i_prog i) = true -> model i = {| o_outs := [OSkip]; o_ok := true |}.
Proof. intros S. rewrite model_obs. unfold verdict_of. rewrite S. reflexivity. Qed.

(* C03_no_downgrade_partial: outside F2 a failure or error is never downgraded *)
Theorem no_downgrade_partial i e :
  finding_F2 i = false ->
  In e (raised (i_prog i)) -> is_failure_or_error (i_prog i) e = true ->
  exists o, model i = {| o_outs := [o]; o_ok := false |} /\ unsuccessful o = true.
Proof.
  intros NF Hin He. rewrite model_obs. exists (fst (verdict_of (i_prog i))).
  assert (U : unsuccessful (fst (verdict_of (i_prog i))) = true).
  { apply (verdict_no_downgrade i NF), existsb_exists. exists e. split; assumption. }
  rewrite U. split; reflexivity.
Qed.

(* the witness of F2: AssertionError in the test, SkipTest in a cleanup -> addSkip, wasSuccessful() *)
Definition F2_witness : input :=
  {| i_prog := {| p_skip := None; p_xfail := false;
                  p_setup := (1, [ACleanup 10 [ARaise (Exc CSkip (Some 1))]]); p_up_setup := true;
                  p_body := (2, [ARaise (Exc CFail (Some 1))]);
                  p_teardown := (3, []); p_up_teardown := true; p_handlers := [] |} |}.
Theorem refuted_F2 :
  exists i, wf i = true /\ finding_F2 i = true /\ spec_okb i (model i) = false
            /\ model i = {| o_outs := [OSkip]; o_ok := true |}.
Proof. exists F2_witness. vm_compute. repeat split. Qed.

(* a forced failure fails the test on every path (fix 889980a) *)
Lemma raised_forced p : skipped p = false -> forced p = true -> raised p = raised_by_user p ++ [Exc CFail None].
Proof. intros S F. unfold raised, forced_failure. now rewrite S, F. Qed.

(* whatever setUp, the test, tearDown or the cleanups raised besides - also inside F2: the forced
   failure is the last exception raised, so "the last one wins" cannot replace it *)
Theorem forced_fails i :
  skipped (i_prog i) = false -> forced (i_prog i) = true ->
  is_failure_or_error (i_prog i) (Exc CFail None) = true ->
  exists o, model i = {| o_outs := [o]; o_ok := false |} /\ unsuccessful o = true.
Proof.
  intros S F H. apply (no_downgrade_partial i (Exc CFail None)); [| |exact H].
  - unfold finding_F2. rewrite (raised_forced _ S F), last_last.
    unfold is_failure_or_error in H.
    destruct (outcome_of (i_prog i) (Exc CFail None)); try discriminate; cbn [unsuccessful negb]; now rewrite andb_false_r.
  - rewrite (raised_forced _ S F). apply in_or_app; right; left; reflexivity.
Qed.
