(* Counting the members of a list that pass a test, and equality of lists as multisets by equal counts.  The count
   is written length (filter f l), which is what the statements' own counting functions unfold to; the last lemmas
   are the same for the standard library's count_occ. *)
From Coq Require Import List Bool Arith Permutation.
Import ListNotations.

Section Count.
  Context {A : Type} (f : A -> bool).

  Lemma count_cons y l : length (filter f (y :: l)) = (if f y then 1 else 0) + length (filter f l).
  Proof. simpl. destruct (f y); reflexivity. Qed.

  Lemma count_perm l l' : Permutation l l' -> length (filter f l) = length (filter f l').
  Proof.
    induction 1 as [|x l l' _ IH|x y l|l l' l'' _ IH1 _ IH2]; simpl; [reflexivity| | |congruence].
    - destruct (f x); simpl; congruence.
    - destruct (f x), (f y); reflexivity.
  Qed.

  Lemma count_pos l : 1 <= length (filter f l) <-> exists y, In y l /\ f y = true.
  Proof.
    induction l as [|y l IH]; simpl.
    - split; [intro H; inversion H|intros [y [[] _]]].
    - destruct (f y) eqn:E; simpl.
      + split; [intros _; exists y; auto|intros _; apply le_n_S, Nat.le_0_l].
      + rewrite IH. split; intros [z [Hz Ez]]; exists z; [auto|].
        destruct Hz as [->|Hz]; [congruence|auto].
  Qed.
End Count.

Section CountEq.
  Context {A : Type} (eqb : A -> A -> bool).
  Hypothesis eqb_eq : forall a b, eqb a b = true <-> a = b.

  Lemma count_in x l : 1 <= length (filter (eqb x) l) <-> In x l.
  Proof.
    rewrite count_pos. split.
    - intros [y [Hy E]]. apply eqb_eq in E. subst. exact Hy.
    - intro H. exists x. split; [exact H|apply eqb_eq; reflexivity].
  Qed.

  (* comparing the counts of the elements that occur is comparing all counts *)
  Lemma same_counts a b :
    forallb (fun x => Nat.eqb (length (filter (eqb x) a)) (length (filter (eqb x) b))) (a ++ b) = true
    <-> forall x, length (filter (eqb x) a) = length (filter (eqb x) b).
  Proof.
    rewrite forallb_forall. split; intros H x; [|intros _; apply Nat.eqb_eq, H].
    destruct (Nat.eq_dec (length (filter (eqb x) a)) 0) as [Ea|Ea].
    - destruct (Nat.eq_dec (length (filter (eqb x) b)) 0) as [Eb|Eb]; [congruence|].
      apply Nat.eqb_eq, H, in_or_app. right. apply count_in, Nat.neq_0_lt_0, Eb.
    - apply Nat.eqb_eq, H, in_or_app. left. apply count_in, Nat.neq_0_lt_0, Ea.
  Qed.

  Lemma counts_perm a : forall b,
    (forall x, length (filter (eqb x) a) = length (filter (eqb x) b)) -> Permutation a b.
  Proof.
    assert (R : forall x, eqb x x = true) by (intro x; apply eqb_eq; reflexivity).
    induction a as [|x a IH]; intros b H.
    - destruct b as [|y b]; [constructor|]. specialize (H y). rewrite count_cons, R in H. discriminate H.
    - assert (Hx : In x b).
      { apply count_in. rewrite <- H, count_cons, R. apply le_n_S, Nat.le_0_l. }
      apply in_split in Hx as [b1 [b2 ->]].
      etransitivity; [|apply Permutation_middle]. apply perm_skip, IH.
      intro z. specialize (H z).
      rewrite <- (count_perm _ _ _ (Permutation_middle b1 b2 x)), !count_cons in H.
      exact (proj1 (Nat.add_cancel_l _ _ _) H).
  Qed.
End CountEq.

Lemma count_occ_same {A} (dec : forall x y : A, {x = y} + {x <> y}) a b :
  forallb (fun x => Nat.eqb (count_occ dec a x) (count_occ dec b x)) (a ++ b) = true
  <-> forall x, count_occ dec a x = count_occ dec b x.
Proof.
  rewrite forallb_forall. split; intros H x; [|intros _; apply Nat.eqb_eq, H].
  destruct (in_dec dec x (a ++ b)) as [Hin|Hn]; [apply Nat.eqb_eq, H, Hin|].
  rewrite (proj1 (count_occ_not_In dec a x)), (proj1 (count_occ_not_In dec b x)); [reflexivity| |];
    intro Hi; apply Hn, in_or_app; auto.
Qed.

Lemma count_occ_same_perm {A} (dec : forall x y : A, {x = y} + {x <> y}) a b :
  forallb (fun x => Nat.eqb (count_occ dec a x) (count_occ dec b x)) (a ++ b) = true <-> Permutation a b.
Proof. rewrite count_occ_same. symmetry. apply Permutation_count_occ. Qed.
