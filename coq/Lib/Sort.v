(* Stable insertion sort. *)
From Coq Require Import List Bool Permutation Sorted.
Import ListNotations.

Section ISort.
  Context {A : Type} (leb : A -> A -> bool).

  Fixpoint insert (x : A) (l : list A) : list A :=
    match l with
    | [] => [x]
    | y :: r => if leb y x then y :: insert x r else x :: l   (* after equal elements: stable *)
    end.

  Definition isort (l : list A) : list A := fold_left (fun acc x => insert x acc) l [].

  Lemma insert_perm x l : Permutation (x :: l) (insert x l).
  Proof.
    induction l as [|y r IH]; simpl; [reflexivity|].
    destruct (leb y x); [|reflexivity].
    etransitivity; [apply perm_swap|]. apply perm_skip. exact IH.
  Qed.

  Lemma fold_insert_perm l acc : Permutation (acc ++ l) (fold_left (fun a x => insert x a) l acc).
  Proof.
    revert acc; induction l as [|x l IH]; intro acc; simpl.
    - rewrite app_nil_r. reflexivity.
    - etransitivity; [|apply IH].
      etransitivity; [symmetry; apply Permutation_middle|].
      change (x :: acc ++ l) with ((x :: acc) ++ l).
      apply Permutation_app_tail. apply insert_perm.
  Qed.

  Lemma isort_perm l : Permutation l (isort l).
  Proof. exact (fold_insert_perm l []). Qed.

  Hypothesis leb_total : forall a b, leb a b = true \/ leb b a = true.

  Definition le (a b : A) : Prop := leb a b = true.

  Lemma insert_hdrel x a l : le a x -> HdRel le a l -> HdRel le a (insert x l).
  Proof.
    intros Hax H. destruct l as [|y r]; simpl; [constructor; exact Hax|].
    inversion H; subst. destruct (leb y x); constructor; assumption.
  Qed.

  Lemma insert_sorted x l : Sorted le l -> Sorted le (insert x l).
  Proof.
    induction 1 as [|y r Hs IH Hh]; simpl; [repeat constructor|].
    destruct (leb y x) eqn:E.
    - constructor; [exact IH|]. apply insert_hdrel; assumption.
    - constructor; [constructor; assumption|]. constructor.
      destruct (leb_total x y) as [H|H]; [exact H|congruence].
  Qed.

  Lemma isort_sorted l : Sorted le (isort l).
  Proof.
    unfold isort. assert (H : Sorted le []) by constructor. revert H. generalize (@nil A).
    induction l as [|x l IH]; intros acc H; simpl; [exact H|].
    apply IH. apply insert_sorted. exact H.
  Qed.
End ISort.

(* isort acts alike on lists related by a relation that preserves the comparison
   (R a b := a = f b: it commutes with an order-preserving map) *)
Section SortRel.
  Context {A B : Type} (R : A -> B -> Prop) (la : A -> A -> bool) (lb : B -> B -> bool).
  Hypothesis Hleb : forall a a' b b', R a b -> R a' b' -> la a a' = lb b b'.

  Lemma insert_rel a b l m : R a b -> Forall2 R l m -> Forall2 R (insert la a l) (insert lb b m).
  Proof.
    intros Hab H. induction H as [|x y l m Hxy H IH]; simpl; [repeat constructor; exact Hab|].
    rewrite (Hleb x a y b Hxy Hab). destruct (lb y b).
    + constructor; [exact Hxy | exact IH].
    + constructor; [exact Hab | constructor; assumption].
  Qed.

  Lemma isort_rel l m : Forall2 R l m -> Forall2 R (isort la l) (isort lb m).
  Proof.
    unfold isort. assert (H0 : Forall2 R [] []) by constructor. revert H0.
    generalize (@nil A) (@nil B). intros acc acc' H0 H. revert acc acc' H0.
    induction H as [|x y l m Hxy H IH]; intros acc acc' H0; simpl; [exact H0|].
    apply IH. apply insert_rel; assumption.
  Qed.
End SortRel.
