(* Byte strings as stdlib [string] (a list of 8-bit characters): what the stream
   models use for file_bytes, mime strings and skip reasons.  Stdlib only. *)
From Coq Require Export String.
From Coq Require Import Ascii List Arith Bool.
Import ListNotations.
Open Scope string_scope.

(* literal helper used by the Gallina printer for anything that is not printable ASCII *)
Fixpoint bs (l : list nat) : string :=
  match l with
  | [] => EmptyString
  | n :: r => String (ascii_of_nat n) (bs r)
  end.

(* Python: `not b` for a bytes object *)
Definition sempty (s : string) : bool :=
  match s with EmptyString => true | String _ _ => false end.

(* b"".join(chunks) *)
Definition sjoin (l : list string) : string := fold_right append "" l.

Lemma sempty_true s : sempty s = true <-> s = "".
Proof. destruct s; simpl; split; congruence. Qed.

Lemma sapp_nil_r s : s ++ "" = s.
Proof. induction s as [|c s IH]; simpl; [reflexivity|]. rewrite IH. reflexivity. Qed.

Lemma sapp_assoc a b c : (a ++ b) ++ c = a ++ (b ++ c).
Proof. induction a as [|x a IH]; simpl; [reflexivity|]. rewrite IH. reflexivity. Qed.

Lemma slength_app a b : String.length (a ++ b) = (String.length a + String.length b)%nat.
Proof. induction a as [|x a IH]; simpl; [reflexivity|]. rewrite IH. reflexivity. Qed.

Lemma sjoin_app l m : sjoin (l ++ m) = sjoin l ++ sjoin m.
Proof.
  induction l as [|x l IH]; simpl; [reflexivity|]. rewrite IH, sapp_assoc. reflexivity.
Qed.

Lemma sempty_app a b : sempty (a ++ b) = (sempty a && sempty b)%bool.
Proof. destruct a; simpl; reflexivity. Qed.

(* compact literal for arbitrary bytes: hx "e29c93" is the 3-byte string E2 9C 93 (lower-case hex digits) *)
Definition hexval (c : ascii) : nat :=
  let n := nat_of_ascii c in if Nat.leb 97 n then n - 87 else n - 48.
Fixpoint hx (s : string) : string :=
  match s with
  | String a (String b r) => String (ascii_of_nat (16 * hexval a + hexval b)) (hx r)
  | _ => EmptyString
  end.
