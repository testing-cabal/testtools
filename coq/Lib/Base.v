(* Shared basics: results, generic decidable-equality helpers, the correspondence
   report function used by every generated case shard. Stdlib only. *)
From Coq Require Export List Bool Arith NArith ZArith Lia.
Export ListNotations.

(* results of running something that may raise *)
Inductive res (A E : Type) := Ok (a : A) | Raised (e : E).
Arguments Ok {A E} a.
Arguments Raised {A E} e.

Definition res_eqb {A E} (ea : A -> A -> bool) (ee : E -> E -> bool) (x y : res A E) : bool :=
  match x, y with
  | Ok a, Ok b => ea a b
  | Raised e, Raised f => ee e f
  | _, _ => false
  end.

(* boolean equality on the usual containers *)
Fixpoint list_eqb {A} (eqb : A -> A -> bool) (l1 l2 : list A) : bool :=
  match l1, l2 with
  | [], [] => true
  | x :: r, y :: s => eqb x y && list_eqb eqb r s
  | _, _ => false
  end.

Definition option_eqb {A} (eqb : A -> A -> bool) (a b : option A) : bool :=
  match a, b with
  | None, None => true
  | Some x, Some y => eqb x y
  | _, _ => false
  end.

Definition pair_eqb {A B} (ea : A -> A -> bool) (eb : B -> B -> bool) (p q : A * B) : bool :=
  ea (fst p) (fst q) && eb (snd p) (snd q).

Lemma list_eqb_spec_in {A} (eqb : A -> A -> bool) l1 :
  (forall a, In a l1 -> forall b, eqb a b = true <-> a = b) ->
  forall l2, list_eqb eqb l1 l2 = true <-> l1 = l2.
Proof.
  induction l1 as [|x r IH]; intros H [|y s]; simpl; split; intro E;
    try reflexivity; try discriminate.
  - apply andb_true_iff in E as [E1 E2]. apply H in E1; [|left; reflexivity].
    apply IH in E2; [congruence|]. intros a Ha. apply H. right; exact Ha.
  - injection E as -> ->. apply andb_true_iff; split.
    + apply H; [left|]; reflexivity.
    + apply IH; [|reflexivity]. intros a Ha. apply H. right; exact Ha.
Qed.

Lemma list_eqb_spec {A} (eqb : A -> A -> bool) :
  (forall a b, eqb a b = true <-> a = b) ->
  forall l1 l2, list_eqb eqb l1 l2 = true <-> l1 = l2.
Proof. intros H l1. apply list_eqb_spec_in. intros a _. apply H. Qed.

Lemma option_eqb_spec {A} (eqb : A -> A -> bool) :
  (forall a b, eqb a b = true <-> a = b) ->
  forall a b, option_eqb eqb a b = true <-> a = b.
Proof.
  intros H [a|] [b|]; simpl; split; intro E; try reflexivity; try discriminate.
  - apply H in E; congruence.
  - injection E as ->; apply H; reflexivity.
Qed.

Lemma pair_eqb_spec {A B} (ea : A -> A -> bool) (eb : B -> B -> bool) :
  (forall a b, ea a b = true <-> a = b) ->
  (forall a b, eb a b = true <-> a = b) ->
  forall p q, pair_eqb ea eb p q = true <-> p = q.
Proof.
  intros HA HB [a b] [c d]; unfold pair_eqb; simpl; split; intro E.
  - apply andb_true_iff in E as [E1 E2]. apply HA in E1. apply HB in E2. congruence.
  - injection E as -> ->. apply andb_true_iff; split; [apply HA|apply HB]; reflexivity.
Qed.

Lemma res_eqb_spec {A E} (ea : A -> A -> bool) (ee : E -> E -> bool) :
  (forall a b, ea a b = true <-> a = b) ->
  (forall a b, ee a b = true <-> a = b) ->
  forall x y, res_eqb ea ee x y = true <-> x = y.
Proof.
  intros HA HE [a|e] [b|f]; simpl; split; intro H; try discriminate.
  - apply HA in H; congruence.
  - injection H as ->; apply HA; reflexivity.
  - apply HE in H; congruence.
  - injection H as ->; apply HE; reflexivity.
Qed.

Lemma bool_eqb_spec a b : Bool.eqb a b = true <-> a = b.
Proof. exact (eqb_true_iff a b). Qed.

Lemma eqb_spec_refl {A} (eqb : A -> A -> bool) :
  (forall a b, eqb a b = true <-> a = b) -> forall a, eqb a a = true.
Proof. intros H a. apply H. reflexivity. Qed.

Lemma nats_eqb_spec l1 l2 : list_eqb Nat.eqb l1 l2 = true <-> l1 = l2.
Proof. apply list_eqb_spec, Nat.eqb_eq. Qed.

Lemma onat_eqb_spec a b : option_eqb Nat.eqb a b = true <-> a = b.
Proof. apply option_eqb_spec, Nat.eqb_eq. Qed.

(* The correspondence report.
   A shard is a list of (input, observation of the implementation).  The
   report lists: how many cases Coq saw, the indices where the model's
   observation differs from the implementation's (compared by obs_eqb), the
   indices whose *implementation* observation fails the executable statement
   spec_okb, and for each index the ids of the known findings whose delimiting
   predicate holds of the input. *)
Section Report.
  Context {I O : Type}.
  Variable model : I -> O.
  Variable obs_eqb : O -> O -> bool.
  Variable spec_okb : I -> O -> bool.
  Variable findings : I -> list nat.

  Fixpoint idx_where (p : I * O -> bool) (k : nat) (cs : list (I * O)) : list nat :=
    match cs with
    | [] => []
    | c :: r => if p c then k :: idx_where p (S k) r else idx_where p (S k) r
    end.

  Fixpoint idx_findings (k : nat) (cs : list (I * O)) : list (nat * list nat) :=
    match cs with
    | [] => []
    | c :: r => match findings (fst c) with
                | [] => idx_findings (S k) r
                | fs => (k, fs) :: idx_findings (S k) r
                end
    end.

  Definition report (cs : list (I * O)) :=
    (length cs,
     idx_where (fun c => negb (obs_eqb (model (fst c)) (snd c))) 0 cs,
     idx_where (fun c => negb (spec_okb (fst c) (snd c))) 0 cs,
     idx_findings 0 cs).

  (* for replay files: what the model says and whether the model itself meets the statement *)
  Definition model_at (cs : list (I * O)) (k : nat) : option (O * bool * bool) :=
    match nth_error cs k with
    | None => None
    | Some c => Some (model (fst c), spec_okb (fst c) (model (fst c)), spec_okb (fst c) (snd c))
    end.
End Report.
