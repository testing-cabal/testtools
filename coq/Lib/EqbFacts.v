(* Boolean comparisons that decide equality, proved component by component. *)
From Coq Require Import Bool.

Lemma andb_iff b1 b2 P Q : (b1 = true <-> P) -> (b2 = true <-> Q) -> (b1 && b2 = true <-> P /\ Q).
Proof. intros H1 H2. split; [intro H; apply andb_true_iff in H | intro H; apply andb_true_iff]; tauto. Qed.

Lemma orb_iff b1 b2 P Q : (b1 = true <-> P) -> (b2 = true <-> Q) -> (b1 || b2 = true <-> P \/ Q).
Proof. intros H1 H2. split; [intro H; apply orb_true_iff in H | intro H; apply orb_true_iff]; tauto. Qed.

Lemma false_true_iff (P : Prop) : ~ P -> (false = true <-> P).
Proof. intro H. split; [discriminate | intro p; destruct (H p)]. Qed.

Lemma true_true_iff {A} (x : A) : true = true <-> x = x.
Proof. split; reflexivity. Qed.

(* For a goal  cmp x y = true <-> x = y  with x, y destructed and cmp simplified: different constructors; the
   same constant; or one constructor whose arguments are compared by a conjunction, each conjunct decided by
   the tactic [spec]. *)
Ltac eqb_components spec :=
  first
  [ apply false_true_iff; discriminate
  | apply true_true_iff
  | eapply iff_trans;
    [ repeat first [spec | apply andb_iff]
    | split; [ let H := fresh in intro H; decompose [and] H; subst; reflexivity
             | let H := fresh in intro H; injection H; intros; subst; repeat split ] ] ].
