(* C13 - concurrent suites run every test once, deliver every event, terminate.  PARTIAL: every
   interleaving at the granularity of operations on the shared objects (Thread.start, queue.put/get,
   Thread.join, semaphore.acquire/release, each call on the caller's result); preemption inside the
   bytecode between two such operations is not in the model.  The statements; each proof is
   `exact <lemma>` or a few lines from the lemmas of Proof/C13*.v.

   Throughout: i = an input of the classic suite (cinput: per sub-suite the calls its run(result) makes,
   RRaise = run() raises there, and which of that worker's calls on the caller's result raise; where
   make_tests raises; which queue.get() is interrupted; which of main's own stop() calls raise; whether
   what is raised is an Exception) or of the stream suite (sinput); sched = ANY list of thread numbers
   (0 = the caller of run(), w+1 = the worker of sub-suite w); creach i sched / sreach i sched = the
   configuration after that schedule (an entry naming a blocked or finished thread is a no-op).
   Stream: worker w = the StreamToQueue object of the w-th sub-suite; the route codes make_tests assigns
   (si_routes, `sroute i w`) are arbitrary - None, equal for several sub-suites - and identify nobody. *)
From TT Require Import Lib.Base Lib.ListFacts Model.Tfr Model.Concur Spec.C12 Spec.C13 Corr.C13 Proof.C12 Proof.C13 Proof.C13Classic Proof.C13Thms.

(* The model meets the whole statement for every number of sub-suites, every script, every route-code
   assignment (None, equal codes for several sub-suites), every fault placement and every schedule given to
   the harness scheduler (which then runs all threads to their end). *)
Theorem C13_holds : forall i : input, spec_okb i (model i) = true.
Proof. intros [ci|si]; [apply classic_meets_spec | apply stream_meets_spec]. Qed.
Print Assumptions C13_holds.

(* a worker puts on the queue exactly the events the statement expects from its sub-suite, whatever its route
   code is - under None the event's own route code travels unchanged (F26, repaired by 866c44b) *)
Theorem C13_sends : forall rt w base s, ev_of (emits rt w base s) = sent_events rt base s.
Proof. exact emits_clean. Qed.
Print Assumptions C13_sends.

(* ... and the executable statement implies the readable one (Spec.C13.Spec). *)
Theorem C13_statement : forall i o, spec_okb i o = true -> Spec i o.
Proof. intros [ci|si] o; [apply classic_okb_sound | apply stream_okb_sound]. Qed.
Print Assumptions C13_statement.

(* the correspondence compares observations through Corr.C13.alpha, i.e. as far as the statement fixes them whatever
   synchronisation primitives the suite uses and whether or not it has a queue: per started worker its own calls
   on the caller's result and (normal return) what main passed on from it; which sub-suites were started; raised;
   deadlock; semaphore free; live flags for a normal return; the workers told to stop when make_tests raised.
   Queue events, joins, main's stop() calls and the global interleaving are forgotten. *)
Theorem C13_obs_eqb : forall a b, obs_eqb a b = true <-> alpha a = alpha b.
Proof. intros a b. apply caobs_eqb_spec. Qed.
Print Assumptions C13_obs_eqb.

(* each_once: after ANY schedule the sub-suites started are 0, 1, ..., each once, never more than make_tests
   yields; thread w+1's part of the caller's-result log is a run of sub-suite w's own thread and of nothing else *)
Theorem C13_each_once : forall i sched, let c := creach i sched in
  spawns (k_log c) = seq 0 (length (k_workers c))
  /\ length (k_workers c) <= started (length (ci_suites i)) (ci_mt_raise i)
  /\ forall w wk, nth_error (k_workers c) w = Some wk ->
       exists s fl, nth_error (ci_suites i) w = Some (s, fl)
         /\ tpath (init_thread s fl (worker_fb (ci_base i))) (proj (S w) (cg_log (k_log c))) (cw_th wk).
Proof.
  exact (fun i sched => let HB := cv_base i _ (creach_inv i sched) in
         conj (cb_spawns i _ _ _ _ HB) (conj (cb_le i _ _ _ _ HB)
           (fun w wk Hn => proj2 (proj2 (proj2 (cb_thr i _ _ _ _ HB w wk Hn)))))).
Qed.
Print Assumptions C13_each_once.

(* ... stream: what worker w has put on the queue so far plus what it has still to put is exactly
   startTestRun, the events of sub-suite w (cut at a raise, then the broken-runner test), stopTestRun *)
Theorem C13_each_once_stream : forall i sched, let c := sreach i sched in
  spawns (s_log c) = seq 0 (length (s_workers c))
  /\ length (s_workers c) <= started (length (si_suites i)) (si_mt_raise i)
  /\ forall w todo, nth_error (s_workers c) w = Some todo ->
       exists s, nth_error (si_suites i) w = Some s /\ fw w (putsq (s_log c)) ++ todo = worker_puts (sroute i w) w (si_base i) s.
Proof.
  exact (fun i sched => let HB := sv_base i _ (sreach_inv i sched) in
         conj (sb_spawns i _ _ _ HB) (conj (sb_le i _ _ _ HB) (sb_workers i _ _ _ HB))).
Qed.
Print Assumptions C13_each_once_stream.

(* returns_after_all: after ANY schedule, if run() has returned normally no worker was alive at that moment *)
Theorem C13_returns_after_all : forall i sched, let c := creach i sched in
  k_main c = CMDone -> k_raised c = false ->
  length (k_live c) = started (length (ci_suites i)) (ci_mt_raise i) /\ forallb negb (k_live c) = true.
Proof.
  intros i sched.
  simpl. intros Em Hr. pose proof (cv_phase i _ (creach_inv i sched)) as Hp. unfold cphase in Hp.
  rewrite Em, Hr in Hp. destruct Hp as (_ & _ & Hl & (_ & Hf) & _). split; assumption.
Qed.
Print Assumptions C13_returns_after_all.

Theorem C13_returns_after_all_stream : forall i sched, let c := sreach i sched in
  s_main c = SMDone -> s_raised c = false ->
  length (s_live c) = started (length (si_suites i)) (si_mt_raise i) /\ forallb negb (s_live c) = true.
Proof.
  intros i sched.
  simpl. intros Em Hr. pose proof (sv_phase i _ (sreach_inv i sched)) as Hp. rewrite Em in Hp.
  destruct Hp as (_ & _ & Hl & _ & Hf & _). split; [exact Hl | apply (Hf Hr)].
Qed.
Print Assumptions C13_returns_after_all_stream.

(* delivery, classic: after ANY schedule worker w's part of the caller's-result log is a prefix of what w
   does when it runs alone (ctrace: its script up to the first forwarder call that raises, then the
   broken-runner fallback), all of it once w has finished: nothing lost, nothing twice, w's order *)
Theorem C13_delivery : forall i sched w wk, let c := creach i sched in
  nth_error (k_workers c) w = Some wk ->
  exists s fl fbs rest, nth_error (ci_suites i) w = Some (s, fl) /\ worker_fb (ci_base i) = Some fbs
     /\ proj (S w) (cg_log (k_log c)) ++ rest = ctrace fl PEnd s fbs fwd0 0
     /\ (finished (cw_th wk) = true -> rest = []).
Proof.
  intros i sched w wk c Hn. subst c.
  destruct (cbase_worker_trace i _ _ _ _ w wk (cv_base i _ (creach_inv i sched)) Hn) as (s & fl & fbs & Hs & Hfb & E & Hf).
  exists s, fl, fbs, (wtrace (cw_th wk)). auto.
Qed.
Print Assumptions C13_delivery.

(* ... and the caller's result sees one test at a time (C12 corollary): after ANY schedule its log is a
   sequence of complete single-owner sections acquire, calls, release, plus the holder's open section *)
Theorem C13_one_at_a_time : forall i sched, let c := creach i sched in
  let K := started (length (ci_suites i)) (ci_mt_raise i) in
  exists secs tail, cg_log (k_log c) = flat_map render secs ++ tail
     /\ Forall (sec_ok (S K)) secs /\ open_tail (S K) (k_sem c) tail.
Proof. exact (fun i sched => mon_sections _ _ _ (cb_mon i _ _ _ _ (cv_base i _ (creach_inv i sched)))). Qed.
Print Assumptions C13_one_at_a_time.

(* delivery, stream: after ANY schedule what main has passed to the caller's result with route code w is a
   prefix of what sub-suite w emits, event for event (own route code kept), each with a timestamp (the
   worker's own where it supplied one; one assigned on the way where it left the keyword out or passed
   timestamp=None explicitly); all of it when run() has returned normally *)
Theorem C13_delivery_stream : forall i sched w s, let c := sreach i sched in
  nth_error (si_suites i) w = Some s -> w < length (s_workers c) ->
  (forall x, In x (delivered w (s_log c)) -> has_ts (snd (fst x)) = true)
  /\ exists rest, map to3 (delivered w (s_log c)) ++ rest = ev_of (emits (sroute i w) w (si_base i) s)
       /\ (s_main c = SMDone -> s_raised c = false -> rest = []).
Proof. exact (fun i sched w s => sinv_delivered i _ w s (sreach_inv i sched)). Qed.
Print Assumptions C13_delivery_stream.

(* timestamps: whatever a stream worker emits - keyword left out, timestamp=None passed explicitly, or its own
   datetime - is queued with a timestamp (its own one kept), so by C13_delivery_stream reaches the caller so *)
Theorem C13_stamped : forall rt w base s,
  Forall (fun e : nat * nat * rcode * tstamp => has_ts (snd e) = true) (ev_of (emits rt w base s)).
Proof. exact emits_has_ts. Qed.
Print Assumptions C13_stamped.

(* broken_runner, classic: the log of a worker alone (caller's result not raising, well-formed reporting
   before the raise) is the expected log of its tests; when run() raised an Exception it is followed by
   exactly one errored broken-runner test; when it raised something else the thread just ends *)
Theorem C13_broken_runner : forall s fbs, wf_script Out (fst (before_raise s)) = true ->
  let pre := fst (before_raise s) in
  (snd (before_raise s) = false -> ctrace [] PEnd s fbs fwd0 0 = expected [] pre sst0 0)
  /\ (snd (before_raise s) = true -> ctrace [] PEnd s [] fwd0 0 = expected [] pre sst0 0)
  /\ (snd (before_raise s) = true ->
        exists body, ctrace [] PEnd s [br_script] fwd0 0 = expected [] pre sst0 0 ++ section body
                     /\ BrokenRunnerBlock body).
Proof.
  intros s fbs Hw. simpl. split; [|split]; intro Hb.
  - destruct (ctrace_nofault s fbs Hw) as (f' & k' & ->). rewrite Hb. apply app_nil_r.
  - destruct (ctrace_nofault s [] Hw) as (f' & k' & ->). rewrite Hb. apply app_nil_r.
  - destruct (ctrace_nofault s [br_script] Hw) as (f' & k' & ->). rewrite Hb.
    destruct (br_trace f' k') as (body & -> & Hbody). exists body. split; [reflexivity | apply br_body_sound; exact Hbody].
Qed.
Print Assumptions C13_broken_runner.

(* broken_runner, stream: a sub-suite whose run() raises an Exception emits its events so far and then the
   broken-runner test (inprogress, fail); nothing more if it was not an Exception *)
Theorem C13_broken_runner_stream : forall rt w pre rest, (forall x, In x pre -> x <> SRaise) ->
  emits rt w false (pre ++ SRaise :: rest)
    = emits rt w false pre ++ [QStatus w br_id st_inprogress (rt, None) TNow; QStatus w br_id st_fail (rt, None) TNow]
  /\ emits rt w true (pre ++ SRaise :: rest) = emits rt w true pre.
Proof.
  intros rt w pre rest.
  induction pre as [|[id st own a|] pre IH]; intro H; simpl.
  - split; reflexivity.
  - destruct IH as [I1 I2]; [intros x Hx; apply H; right; exact Hx|]. rewrite I1, I2. split; reflexivity.
  - exfalso. apply (H SRaise); [left; reflexivity | reflexivity].
Qed.
Print Assumptions C13_broken_runner_stream.

(* abort: after ANY schedule, once run() has ended: it raised iff make_tests raised, a queue.get() was
   interrupted or the caller's result raised; if it raised, stop() was called on the process results of the
   workers started and not yet joined (cU), in order - all of them unless a stop() of the caller's result
   itself raised, then up to and including that one; otherwise on none.  (The abort path does not join.)
   This is what the CURRENT code does; the statement (Spec.Common) only demands that every started, unjoined
   worker is told to stop when no stop() raised, and that no never-started worker is - order and whether
   joined workers are told too are open. *)
Theorem C13_abort : forall i sched, let c := creach i sched in k_main c = CMDone ->
  k_raised c = craise_exp i (k_log c)
  /\ (k_raised c = true -> k_stops c = firstn (stops_expected (main_stops (k_log c)) (length (cU i c))) (cU i c))
  /\ (k_raised c = false -> k_stops c = []).
Proof.
  intros i sched.
  simpl. intro Em. pose proof (cv_phase i _ (creach_inv i sched)) as Hp. unfold cphase in Hp. rewrite Em in Hp.
  destruct Hp as (_ & Hr & _ & Hs & _). split; [exact Hr|]. split; intro E; rewrite E in Hs; apply Hs.
Qed.
Print Assumptions C13_abort.

Theorem C13_abort_stream : forall i sched, let c := sreach i sched in s_main c = SMDone ->
  s_raised c = raise_expected i (s_log c)
  /\ s_stops c = (if s_raised c
                  then unreaped_of (started (length (si_suites i)) (si_mt_raise i)) (joins (s_log c)) else []).
Proof.
  intros i sched.
  simpl. intro Em. pose proof (sv_phase i _ (sreach_inv i sched)) as Hp. rewrite Em in Hp.
  destruct Hp as (Hr & Hs & _). split; assumption.
Qed.
Print Assumptions C13_abort_stream.

(* terminates: no reachable configuration is deadlocked (while main or a worker is unfinished somebody can
   move), every move decreases a natural-number measure, and the harness scheduler's run is one of the
   schedules and ends with everything finished and the semaphore free *)
Theorem C13_no_deadlock : forall i sched, let c := creach i sched in
  call_done c = false -> exists t, t < cnthr c /\ cstep i c t <> None.
Proof. exact (fun i sched => clive i _ (creach_inv i sched)). Qed.
Print Assumptions C13_no_deadlock.

Theorem C13_no_deadlock_stream : forall i sched, let c := sreach i sched in
  sall_done c = false -> exists t, t < snthr c /\ sstep i c t <> None.
Proof. exact (fun i sched => slive i _ (sreach_inv i sched)). Qed.
Print Assumptions C13_no_deadlock_stream.

Theorem C13_progress : forall i c t c', cstep i c t = Some c' -> cmeas i c' < cmeas i c.
Proof. exact cstep_measure. Qed.
Print Assumptions C13_progress.

Theorem C13_progress_stream : forall i c t c', sstep i c t = Some c' -> smeasure i c' < smeasure i c.
Proof. exact sstep_measure. Qed.
Print Assumptions C13_progress_stream.

Theorem C13_terminates : forall i,
  call_done (crun i) = true /\ k_sem (crun i) = None /\ exists s, crun i = creach i s.
Proof. intros i. destruct (crun_inv i) as (Hs & HI & Hd). split; [exact Hd|]. split; [apply (done_sem_free i _ HI Hd) | exact Hs]. Qed.
Print Assumptions C13_terminates.

Theorem C13_terminates_stream : forall i, sall_done (srun i) = true /\ exists s, srun i = sreach i s.
Proof. intros i. destruct (srun_inv i) as (Hs & _ & Hd). split; [exact Hd | exact Hs]. Qed.
Print Assumptions C13_terminates_stream.

(* non-vacuity: (1) classic, two sub-suites, the second one's run() raises: its worker reports the
   broken-runner error, run() returns with nobody alive; (2) stream, the caller's result raises at its third
   event (the second event of worker 0): run() raises, both unreaped workers are told to stop;
   two sub-suites with the SAME route code 4 are told apart;
   (3) classic, the first queue.get() is interrupted: stop() is called for both workers *)
Example C13_example :
  let ci := {| ci_suites := [([RStartTest 1; ROutcome KSuccess 1; RStopTest 1], []); ([RStartTest 2; RRaise], [])];
               ci_mt_raise := None; ci_get_intr := None; ci_main_faults := []; ci_base := false;
               ci_sched := [1; 2; 2; 1; 0; 2] |} in
  let o := model (IClassic ci) in
  let si := {| si_suites := [[SEv 1 0 None TsOmit; SEv 1 1 None TsNone]; [SEv 2 0 (Some 1) (TsAt 7); SRaise]];
               si_routes := [Some 4; Some 4]; si_mt_raise := None;
               si_get_intr := None; si_main_faults := [2]; si_base := false;
               si_sched := [0; 0; 1; 2; 0; 0; 1; 2; 0; 0; 2; 2] |} in
  let o2 := model (IStream si) in
  let ci3 := {| ci_suites := [([RStartTest 1; ROutcome KSuccess 1; RStopTest 1], []);
                              ([RStartTest 2; ROutcome KFailure 2; RStopTest 2], [])];
                ci_mt_raise := None; ci_get_intr := Some 0; ci_main_faults := []; ci_base := true;
                ci_sched := [0; 0; 0; 1; 1] |} in
  let o3 := model (IClassic ci3) in
  (o_raised o, o_deadlock o, o_live o, o_stops o, spawns (o_trace o), joins (o_trace o))
    = (false, false, [false; false], [], [0; 1], [0; 1])
  /\ outcomes_of_log (proj 1 (cg_log (o_trace o))) = [(KSuccess, 1)]
  /\ outcomes_of_log (proj 2 (cg_log (o_trace o))) = [(KError, br_id)]
  /\ (o_raised o2, o_deadlock o2, o_stops o2) = (true, false, [0; 1])
  /\ delivered 0 (o_trace o2) = [(1, 0, (Some 4, None), TNow, false); (1, 1, (Some 4, None), TNow, true)]
  /\ delivered 1 (o_trace o2) = [(2, 0, (Some 4, Some 1), TOwn 7, false)]
  /\ (o_raised o3, o_deadlock o3, o_stops o3, main_stops (o_trace o3)) = (true, false, [0; 1], [false; false]).
Proof. vm_compute. repeat split. Qed.
