(* C01 - every test run is bracketed and yields exactly one outcome; an exception outside
   Exception is reported as an error and propagates after stopTest.
   The statements; each proof is `exact <lemma>` or a few lines from the lemmas of Proof/C01.v
   and Proof/Run*.v. *)
From TT Require Import Lib.EqbFacts Lib.Base Gen.Handlers Model.Run Spec.Run Spec.C01 Corr.C01 Proof.RunCore
  Proof.RunExtra Proof.RunTable Proof.RunVerdict Proof.C01.

(* The model meets the whole statement for every finite program (any number of statements per
   stage, cleanups registering cleanups to any depth, any exception values incl. nested and empty
   MultipleExceptions and user subclasses, decorators, fixtures, handlers inserted before or
   during the run for Exception-derived classes), every result flavour, and every history of earlier
   runs of the same instance (i_prev: any number of runs with per-run scripted stages; the observed
   run is the last), and every configuration of the RunTest factory (i_runner: any factory of Model.Run.factory
   - RunTest, subclasses and functions with explicit / star / keyword-only / ** signatures, functools.partial,
   callable objects, bound methods, factories that cannot be called with last_resort= - installed in any way). *)
Theorem C01_holds : forall i : input, wf i = true -> spec_okb i (model i) = true.
Proof. exact model_meets_spec. Qed.
Print Assumptions C01_holds.

(* the configuration is irrelevant: the run of a case with any factory IS the run with the default RunTest, so
   every theorem below about run_from / run holds for it; the model's observation does not depend on it *)
Theorem C01_factory_irrelevant : forall r p s, run_from_runner r p s = run_from p s.
Proof. exact factory_irrelevant. Qed.
Print Assumptions C01_factory_irrelevant.
Theorem C01_model_factory_irrelevant : forall i,
  model i = model {| i_prev := i_prev i; i_prog := i_prog i; i_flavour := i_flavour i; i_runner := default_runner |}.
Proof. exact model_factory_irrelevant. Qed.
Print Assumptions C01_model_factory_irrelevant.

(* why the handler of last resort has to reach the RunTest whichever way it is built (fix F27): with a RunTest
   that has none, on an instance in ANY state, startTest, every body that is to run, the same exception out of
   run(), stopTest last - but NO outcome when something propagates *)
Theorem C01_last_resort_needed : forall p s,
  exists s' o d prop, run_from_with None p s = (s', prop, false)
    /\ calls (tr s') = calls (tr s) ++ [TStart] ++ (match prop with None => [TOut o d] | Some _ => [] end) ++ [TStop]
    /\ map shape (log s') = map shape (log s) ++ expected_log p /\ stack s' = []
    /\ exists s1, run_from p s = (s1, prop, false).
Proof.
  intros p s. destruct (run_from_with_verdict None p s) as (s' & d & R & C & L & K & _).
  destruct (run_from_verdict p s) as (s1 & d1 & R1 & _).
  exists s', (fst (verdict_from p (uh s) (force s))), d, (snd (verdict_from p (uh s) (force s))).
  split; [exact R|]. split.
  { rewrite C. unfold outs_with. destruct (snd (verdict_from p (uh s) (force s))); reflexivity. }
  split; [exact L|]. split; [exact K|]. exists s1. exact R1.
Qed.
Print Assumptions C01_last_resort_needed.

(* ... and the executable statement implies the readable one (Spec.C01.Spec). *)
Theorem C01_statement : forall i o, spec_okb i o = true -> Spec i o.
Proof. exact spec_okb_sound. Qed.
Print Assumptions C01_statement.

Theorem C01_Spec_holds : forall i : input, wf i = true -> Spec i (model i).
Proof. intros i W. exact (spec_okb_sound i (model i) (model_meets_spec i W)). Qed.
Print Assumptions C01_Spec_holds.

(* the correspondence compares the calls on the result and what run() raised exactly, and the
   bodies that ran as a set (alpha forgets their order and multiplicity, which are C02's subject) *)
Theorem C01_obs_eqb : forall a b,
  obs_eqb a b = true <->
  o_events a = o_events b /\ o_raised a = o_raised b /\ (forall t, In t (o_ran a) <-> In t (o_ran b)).
Proof.
  intros a b. unfold obs_eqb. etransitivity.
  - repeat apply andb_iff; [apply list_eqb_spec, ev_eqb_spec | apply rk_eqb_spec | apply subset_incl | apply subset_incl].
  - split; [intros [[[H1 H2] H3] H4] | intros (H1 & H2 & H3)]; repeat split; auto; intros t; apply H3.
Qed.
Print Assumptions C01_obs_eqb.

(* C01_bracket: for EVERY program (no well-formedness needed) the result receives startTest, one
   outcome, stopTest and nothing else (addOnException handler calls aside); the fuel supplied to
   the cleanup loop always suffices; every body that should run did (tearDown iff setUp returned,
   every cleanup, in the order of Spec.Run.expected_log); no cleanup is left *)
Theorem C01_bracket : forall p a0,
  exists s o d prop, run p a0 = (s, prop, false)
                /\ calls (tr s) = [TStart; TOut o d; TStop]
                /\ map shape (log s) = expected_log p /\ stack s = [].
Proof.
  intros p a0. destruct (run_verdict p a0) as (s & d & R & C & L & K).
  exists s, (fst (verdict_of p)), d, (snd (verdict_of p)). repeat split; assumption.
Qed.
Print Assumptions C01_bracket.

(* the same for run() on an instance in ANY state - whatever it ran before and whatever that left
   behind (force_failure, inserted handlers, registered addOnException handlers, a stale list of caught
   exceptions, cleanups, details): one bracket is appended, and the exceptions the run reports from
   are exactly those THIS run caught *)
Theorem C01_bracket_any_state : forall p s,
  exists s' o d prop, run_from p s = (s', prop, false)
                /\ calls (tr s') = calls (tr s) ++ [TStart; TOut o d; TStop]
                /\ map shape (log s') = map shape (log s) ++ expected_log p /\ stack s' = []
                /\ excs s' = collected_run p (force s).
Proof.
  intros p s. destruct (run_from_verdict p s) as (s' & d & R & C & L & K & X & _).
  exists s', (fst (verdict_from p (uh s) (force s))), d, (snd (verdict_from p (uh s) (force s))).
  repeat split; assumption.
Qed.
Print Assumptions C01_bracket_any_state.

(* per run: an exception outside Exception raised in THIS run is reported as the error and comes out of
   run(); if this run raised none, run() returns - also right after an interrupted run *)
Theorem C01_every_run : forall p s,
  within_Exception (rev (inserted p) ++ uh s) = true ->
  exists s' o d prop, run_from p s = (s', prop, false)
    /\ calls (tr s') = calls (tr s) ++ [TStart; TOut o d; TStop]
    /\ match find (fun e => negb (derives_from_Exception e)) (raised p) with
       | Some e => o = OErr /\ prop = Some e
       | None => prop = None
       end.
Proof.
  intros p s W. destruct (run_from_verdict p s) as (s' & d & R & C & _).
  exists s', (fst (verdict_from p (uh s) (force s))), d, (snd (verdict_from p (uh s) (force s))).
  split; [exact R|]. split; [exact C|]. pose proof (verdict_from_base p (uh s) (force s) W) as V.
  destruct (find _ (raised p)); [rewrite V; split; reflexivity | exact V].
Qed.
Print Assumptions C01_every_run.

(* ... and every flavour's result sees exactly that bracket *)
Theorem C01_bracket_delivered : forall i,
  exists o, o_events (model i) = if has_stop (i_flavour i) then [Start; Out o; Stop] else [Start; Out o].
Proof. exact bracket_delivered. Qed.
Print Assumptions C01_bracket_delivered.

(* C01_base_reported: the first exception not derived from Exception is reported as the error,
   all later stages and cleanups still run, and it propagates *)
Theorem C01_base_reported : forall p a0 e,
  handlers_within_Exception p = true ->
  find (fun e => negb (derives_from_Exception e)) (raised p) = Some e ->
  exists s d, run p a0 = (s, Some e, false)
              /\ calls (tr s) = [TStart; TOut OErr d; TStop]
              /\ map shape (log s) = expected_log p /\ stack s = [].
Proof. exact base_reported. Qed.
Print Assumptions C01_base_reported.

(* what comes out of run() is the FIRST exception raised that is outside Exception *)
Theorem C01_first_base_propagates : forall p a0 s e,
  handlers_within_Exception p = true ->
  run p a0 = (s, Some e, false) ->
  exists before after, raised p = before ++ e :: after
                       /\ derives_from_Exception e = false
                       /\ forallb derives_from_Exception before = true.
Proof. exact first_base_propagates. Qed.
Print Assumptions C01_first_base_propagates.

Theorem C01_returns_otherwise : forall p a0,
  handlers_within_Exception p = true ->
  (forall e, In e (raised p) -> derives_from_Exception e = true) ->
  exists s, run p a0 = (s, None, false).
Proof. exact returns_otherwise. Qed.
Print Assumptions C01_returns_otherwise.

(* "does not stop tearDown and the cleanups from running": for every program, the bodies that ran
   are exactly setUp, the test and tearDown iff setUp returned, and every registered cleanup *)
Theorem C01_all_bodies_ran : forall i t, In t (o_ran (model i)) <-> In t (expected_tokens (i_prog i)).
Proof. exact all_bodies_ran. Qed.
Print Assumptions C01_all_bodies_ran.

(* C01_stop_before_raise: whatever propagates, stopTest was delivered last, after exactly one outcome *)
Theorem C01_stop_before_raise : forall p a0,
  let '(s, propagated, oof) := run p a0 in
  oof = false /\ last (calls (tr s)) TStart = TStop
  /\ length (filter (fun e => match e with TOut _ _ => true | _ => false end) (tr s)) = 1.
Proof.
  intros p a0. destruct (run_verdict p a0) as (s & d & R & C & _). rewrite R.
  split; [reflexivity|]. split; [rewrite C; reflexivity|].
  rewrite <- filter_calls, C by reflexivity. reflexivity.
Qed.
Print Assumptions C01_stop_before_raise.

(* an unpacked MultipleExceptions is never empty: raising one always leaves something to report (F3) *)
Theorem C01_flatten_nonempty : forall e, flatten e <> [].
Proof. exact flatten_nonempty. Qed.
Print Assumptions C01_flatten_nonempty.

(* facts about TestCase.exception_handlers of the tree under test, re-checked against the regenerated table on
   every run *)
Theorem C01_table :
  last_resort = Some OErr
  /\ forallb (fun h => match h_out h with Some _ => true | None => false end) generated_handlers = true
  /\ forallb (fun h => subclass (h_cls h) CException) generated_handlers = true
  /\ match rev generated_handlers with h :: _ => cls_eqb (h_cls h) CException | [] => false end = true
  /\ (run_passes_table = true /\ length generated_handlers = length exception_handlers).
Proof.
  exact (conj table_last_resort (conj table_outcomes (conj table_within_Exception
             (conj table_catch_all_last table_complete)))).
Qed.
Print Assumptions C01_table.

(* non-vacuity: KeyboardInterrupt in the test, an ordinary error in a cleanup registered by a
   cleanup, an empty MultipleExceptions in tearDown, a handler inserted while the test runs *)
Example C01_example :
  let p := {| p_skip := None; p_xfail := false;
              p_setup := (1, [ACleanup 10 [ACleanup 11 [ARaise (Exc CValueError None)]]]); p_up_setup := true;
              p_body := (2, [AInsertHandler CValueError OSkip; ARaise (Exc CKbd None)]);
              p_teardown := (3, [ARaise (Multi [])]); p_up_teardown := true; p_handlers := [] |} in
  wf {| i_prev := []; i_prog := p; i_flavour := F26; i_runner := {| r_factory := RT_OldFn; r_via := VDeco |} |} = true
  /\ model {| i_prev := []; i_prog := p; i_flavour := F26; i_runner := {| r_factory := RT_OldFn; r_via := VDeco |} |}
     = {| o_events := [Start; Out OErr; Stop]; o_raised := RKbd; o_ran := [1; 2; 3; 10; 11] |}
  /\ raised p = [Exc CKbd None; Multi []; Exc CValueError None].
Proof. vm_compute. repeat split. Qed.

(* non-vacuity for histories: the first run catches a ValueError (test) and a KeyboardInterrupt (cleanup)
   and is interrupted, the second sets force_failure and inserts a handler, the third - observed - passes
   but for the flag still set: one failure, run() returns *)
Example C01_example_history :
  let mk := fun su b => {| p_skip := None; p_xfail := false; p_setup := (1, su); p_up_setup := true; p_body := (2, b);
                           p_teardown := (3, []); p_up_teardown := true; p_handlers := [] |} in
  let p1 := mk [ACleanup 10 [ARaise (Exc CKbd None)]] [ARaise (Exc CValueError None)] in
  let p2 := mk [] [AForce; AInsertHandler CValueError OSkip] in
  let i := {| i_prev := [p1; p2]; i_prog := mk [ACleanup 10 []] []; i_flavour := FExtended; i_runner := {| r_factory := RT_FnKwargs; r_via := VCtor |} |} in
  wf i = true
  /\ model {| i_prev := []; i_prog := p1; i_flavour := FExtended; i_runner := {| r_factory := RT_FnKwargs; r_via := VCtor |} |}
     = {| o_events := [Start; Out OErr; Stop]; o_raised := RKbd; o_ran := [1; 2; 3; 10] |}
  /\ model i = {| o_events := [Start; Out OFail; Stop]; o_raised := RNone; o_ran := [1; 2; 3; 10] |}
  /\ handlers_before i = [(CValueError, OSkip)].
Proof. vm_compute. repeat split. Qed.
