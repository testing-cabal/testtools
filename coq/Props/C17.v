(* C17 - tags are scoped: test-local changes never leak, run-level changes persist.
   The statements; each proof is `exact <lemma>` or a few lines from the lemmas of Proof/C17.v. *)
From TT Require Import Lib.Base Model.Tags Spec.C17 Corr.C17 Proof.C17.

(* The model meets the whole statement: for every adapter stack and every history of calls
   (the quantifier's restrictions - first clause: tests not nested, new/gone disjoint in every tags()
   call of the history and of the reporter's Taggers (wf_cur); second clause: moreover one outcome per
   test, no startTestRun inside a test (wf_obs) - are hypotheses inside spec_okb, clause by clause). *)
Theorem C17_holds : forall i : input, spec_okb i (model i) = true.
Proof. exact model_meets_spec. Qed.
Print Assumptions C17_holds.

(* ... and the executable statement implies the readable one (Spec.C17.Spec). *)
Theorem C17_statement : forall i o, spec_okb i o = true -> Spec i o.
Proof.
  intros i o H. unfold spec_okb in H. apply andb_true_iff in H as [H1 H2]. split.
  - intro Hn. unfold current_okb in H1. rewrite Hn in H1. simpl in H1. apply lseteqb_spec. exact H1.
  - intro Hw. unfold observed_okb in H2. rewrite Hw in H2. simpl in H2.
    apply leaves_okb_iff, H2.
Qed.
Print Assumptions C17_statement.

(* Every implementation of current_tags (own TagContext: TestResult, MultiTestResult,
   ThreadsafeForwardingResult, ExtendedToStreamDecorator, ExtendedToOriginalDecorator over an old result,
   doubles.ExtendedTestResult; delegating: TestResultDecorator, Tagger, ExtendedToOriginalDecorator)
   refines the two-level specification after every call of every history without nested tests -
   including outcome + stopTest without startTest, and startTestRun anywhere.  (The model's tags() lets
   removal win, so it needs no disjointness here; the STATEMENT only speaks about disjoint sets.) *)
Theorem C17_current : forall a h, nn_from false h = true ->
  Forall2 seteq (reporter_scan a h) (spec_scan (chain a) h).
Proof. exact current_refines. Qed.
Print Assumptions C17_current.

(* The algebra behind _merge_tags: for disjoint new/gone sets a sequence of changes applied to any
   base equals the single merged change; merged pairs stay disjoint; false without disjointness. *)
Theorem C17_merge : forall B chs, Forall disjoint chs ->
  seteq (fold_left apply1 chs B) (apply1 B (fold_left merge_tags chs no_change)).
Proof.
  intros B chs H. eapply seteq_trans; [|apply merge_fold; assumption].
  apply fold_apply1_ext. apply seteq_sym. apply apply1_no_change.
Qed.
Print Assumptions C17_merge.

(* one merged tags() call on the target does what the two calls (run-level buffer, then test-level
   buffer) do - the observation never distinguishes the two - and for disjoint sets both ways of
   writing _merge_tags ("add, then remove" / "removal last") give the same pair *)
Theorem C17_merge_one_call : forall B g t, disjoint t ->
  seteq (apply1 (apply1 B g) t) (apply1 B (merge_tags g t)).
Proof. exact merge_step. Qed.
Print Assumptions C17_merge_one_call.

Theorem C17_merge_gone_forms : forall ex ch, disjoint ch ->
  seteq (snd (merge_tags ex ch)) (sunion (sdiff (snd ex) (fst ch)) (snd ch)).
Proof. exact merge_gone_forms. Qed.
Print Assumptions C17_merge_gone_forms.

Theorem C17_merge_keeps_disjoint : forall ex ch, disjoint ex -> disjoint ch -> disjoint (merge_tags ex ch).
Proof. exact merge_disjoint. Qed.
Print Assumptions C17_merge_keeps_disjoint.

Theorem C17_merge_needs_disjoint : exists B ex ch,
  ~ seteq (apply1 (apply1 B ex) ch) (apply1 B (merge_tags ex ch)).
Proof. exact merge_needs_disjoint. Qed.
Print Assumptions C17_merge_needs_disjoint.

(* Through every adapter stack - MultiTestResult, decorators, ExtendedToOriginalDecorator,
   ThreadsafeForwardingResult, ExtendedToStreamDecorator -> StreamToExtendedDecorator -> PlaceHolder.run,
   nested to any depth - every wrapped result and every stream consumer observes, at each outcome,
   the reporter's current_tags at that outcome (leaves below a Tagger that is not part of the
   reporter are exempt: clean_leaves). *)
Theorem C17_observed : forall a h,
  wf_from false false h = true -> forallb disjointb (chain a) = true ->
  Forall2 (fun clean l => clean = true -> Forall2 seteq l (at_outcomes h (reporter_scan a h)))
          (clean_leaves a) (leaves_obs a h).
Proof. exact observed_ok. Qed.
Print Assumptions C17_observed.

(* one forwarder in isolation: what ThreadsafeForwardingResult sends to its target shows, at every
   outcome, the tags current in the forwarder - and is again a well-formed stream *)
Theorem C17_tfr : forall h, wf_from false false h = true ->
  Forall2 seteq (sobs_from [] sp0 (trans tfr_step tfr0 h)) (sobs_from [] sp0 h)
  /\ wf_from false false (trans tfr_step tfr0 h) = true.
Proof. exact tfr_faithful. Qed.
Print Assumptions C17_tfr.

(* ExtendedToStreamDecorator before the run is started: its own tag context takes every call exactly
   as the other results do, from any state - started or not (tags()/current_tags/stopTest need no
   startTestRun; the implicit start at the first startTest/outcome keeps the tags) ... *)
Theorem C17_e2s_context : forall s op, e_ctx (fst (e2s_step s op)) = istep (e_ctx s) op.
Proof. exact e2s_ctx_step. Qed.
Print Assumptions C17_e2s_context.

(* ... and what the stream pair hands to the wrapped result shows, at every outcome, the tags current
   in the decorator - for every well-formed history, with or without a startTestRun anywhere in it *)
Theorem C17_e2s : forall h, wf_from false false h = true ->
  Forall2 seteq (sobs_from [] sp0 (trans e2s_step e2s0 h)) (sobs_from [] sp0 h)
  /\ wf_from false false (trans e2s_step e2s0 h) = true.
Proof. exact e2s_faithful. Qed.
Print Assumptions C17_e2s.

(* the correspondence compares observations as lists of tag SETS *)
Theorem C17_obs_eqb : forall a b, obs_eqb a b = true <-> obs_equiv a b.
Proof.
  intros a b. unfold obs_eqb, obs_equiv. rewrite andb_true_iff, lseteqb_spec.
  rewrite (list_eqb_Forall2 lseteqb (Forall2 seteq) lseteqb_spec). reflexivity.
Qed.
Print Assumptions C17_obs_eqb.

(* non-vacuity: add globally, startTest-less skip pair, remove locally, tags after the outcome, next
   test, restart - through a Tagger over a forwarder over a multiplexer with a stream pair *)
Example C17_example :
  let a := Tagger ([2], []) (TFR (Multi [Leaf false; E2S (Leaf true)])) in
  let h := [StartRun; Tags ([0], []); Outcome; StopTest; StartTest; Tags ([1], [0]); Outcome; Tags ([0], []);
            StopTest; StartTest; Outcome; StopTest; StartRun; StartTest; Outcome; StopTest] in
  wf_from false false h = true
  /\ reporter_scan a h = [[]; [0]; [0]; [0]; [0; 2]; [2; 1]; [2; 1]; [2; 1; 0]; [0]; [0; 2]; [0; 2]; [0]; []; [2]; [2]; []]
  /\ leaves_obs a h = [[[0]; [2; 1]; [0; 2]; [2]]; [[0]; [2; 1]; [0; 2]; [2]]; [[0]; [2; 1]; [0; 2]; [2]]]
  /\ clean_leaves a = [true; true; true].
Proof. vm_compute. repeat split. Qed.

(* non-vacuity, before any startTestRun: tags() on a fresh ExtendedToStreamDecorator, the run started
   implicitly by the first test (startTestRun reaches the wrapped result, the tags stay), remove and
   re-add in one test, a later explicit startTestRun resets *)
Example C17_example_prestart :
  let a := E2S (TFR (Leaf false)) in
  let h := [Tags ([0], []); StopTest; StartTest; Tags ([], [0]); Tags ([0; 1], []); Outcome; StopTest;
            Outcome; StopTest; StartRun; StartTest; Outcome; StopTest] in
  wf_from false false h = true
  /\ reporter_scan a h = [[0]; [0]; [0]; []; [0; 1]; [0; 1]; [0]; [0]; [0]; []; []; []; []]
  /\ trans e2s_step e2s0 h = [StartRun; Tags ([0; 1], []); StartTest; Outcome; StopTest; Tags ([], [0; 1]);
                               Tags ([0], []); StartTest; Outcome; StopTest; Tags ([], [0]);
                               StartRun; Tags ([], []); StartTest; Outcome; StopTest; Tags ([], [])]
  /\ leaves_obs a h = [[[0; 1]; [0]; []]; [[0; 1]; [0]; []]].
Proof. vm_compute. repeat split. Qed.
