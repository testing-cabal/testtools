(* C19 - suite utilities preserve the test set: filter keeps chosen ids, sort permutes.
   The statements; each proof is `exact <lemma>` or a few lines from the lemmas of Proof/C19.v. *)
From Coq Require Import Permutation Sorted.
From TT Require Import Lib.Base Lib.Sort Model.Suites Spec.C19 Corr.C19 Proof.C19.

(* The model meets the whole statement, for every suite tree, every id set, both unpack flags, every
   table of test ids (non-empty byte strings without line feed and without ASCII whitespace at either
   end - blanks, tabs, brackets, any UTF-8 inside) and every list file (any bytes). *)
Theorem C19_holds : forall i : input, wf i -> spec_okb i (model i) = true.
Proof.
  intros i W. unfold spec_okb. rewrite model_sorted_ok. unfold model; simpl.
  destruct (cli_load_runs (names i) (file i) (tree i) W) as (-> & -> & _).
  unfold cli_list, list_test.
  rewrite filter_paths, iterate_leaves, !(eqb_spec_refl _ nats_eqb_spec). simpl. rewrite !andb_true_r.
  apply list_eqb_spec; [apply group_eqb_spec | reflexivity].
Qed.
Print Assumptions C19_holds.

(* ... and the executable statement implies the readable one (Spec.C19.Spec): leaves in suite order,
   exactly the chosen leaves at their original positions, a sorted arrangement of the top-level
   members with custom suites whole, ValueError on duplicates. *)
Theorem C19_statement : forall i o, spec_okb i o = true -> Spec i o.
Proof.
  intros i o. unfold spec_okb, Spec. intro H.
  apply andb_true_iff in H as [H H7]. apply andb_true_iff in H as [H H6]. apply andb_true_iff in H as [H H5].
  apply andb_true_iff in H as [H H4]. apply andb_true_iff in H as [H H3]. apply andb_true_iff in H as [H1 H2].
  apply nats_eqb_spec in H1, H4, H5, H6, H7. apply (list_eqb_spec _ group_eqb_spec) in H2.
  apply sorted_okb_sound in H3.
  exact (conj H1 (conj H2 (conj H3 (conj H4 (conj H5 (conj H6 H7)))))).
Qed.
Print Assumptions C19_statement.

Theorem C19_iterate : forall n, iterate n = leaves n.
Proof. exact iterate_leaves. Qed.
Print Assumptions C19_iterate.

(* order and grouping: the surviving leaves are the chosen ones, in order, each inside the same
   original suites (in this model every surviving leaf even keeps its position path, because a removed
   test leaves an empty suite in its slot; the statement and the correspondence only speak of the
   enclosing suites, [grouped]) *)
Theorem C19_filter : forall keep n,
  paths (filter_ids keep n) = filter (fun p => keep (snd p)) (paths n)
  /\ iterate (filter_ids keep n) = filter keep (iterate n)
  /\ map grouped (paths (filter_ids keep n)) = map grouped (filter (fun p => keep (snd p)) (paths n)).
Proof. exact (fun keep n => conj (filter_paths keep n) (conj (filter_iterate keep n) (f_equal (map grouped) (filter_paths keep n)))). Qed.
Print Assumptions C19_filter.

(* what [grouped] records: the suite at path q encloses the leaf at path p iff q is a proper prefix
   of p; they are listed outermost first (lengths 0, 1, ...) *)
Theorem C19_enclosing : forall p,
  (forall q, In q (enclosing p) <-> exists r, r <> [] /\ p = q ++ r)
  /\ map (@length nat) (enclosing p) = seq 0 (length p).
Proof.
  intro p. split; [intro q; apply enclosing_iff|].
  unfold enclosing. rewrite map_map. rewrite <- (map_id (seq 0 (length p))) at 2.
  apply map_ext_in. intros k I. apply in_seq in I. apply firstn_length_le. lia.
Qed.
Print Assumptions C19_enclosing.

Theorem C19_sorted : forall u n r, sorted_tests u n = Ok r ->
  Permutation (iterate r) (iterate n)
  /\ exists ms, r = Plain (map snd ms) /\ Permutation (flatten u n) ms
                /\ Sorted (fun a b => key_leb (fst a) (fst b) = true) ms.
Proof.
  intros u n r H. pose proof (sorted_tests_ok u n r H) as E. split.
  - rewrite E. simpl. etransitivity; [apply sort_items_ids|apply flatten_ids].
  - exists (sort_items (flatten u n)). split; [exact E|].
    split; [apply isort_perm|apply (isort_sorted item_leb (fun a b => key_leb_total _ _))].
Qed.
Print Assumptions C19_sorted.

Theorem C19_dup : forall u n,
  (sorted_tests u n = Raised ValueError <-> ~ NoDup (iterate n))
  /\ forall e, sorted_tests u n = Raised e -> e = ValueError.
Proof.
  intros u n. unfold sorted_tests. destruct (has_dup (iterate n)) eqn:E.
  - split; [|congruence]. split; [|reflexivity]. intros _ H. apply has_dup_NoDup in H. congruence.
  - split; [|discriminate]. split; [discriminate|]. intro H. exfalso. apply H, has_dup_NoDup, E.
Qed.
Print Assumptions C19_dup.

(* --list prints the ids of the leaves in suite order; --load-list f runs, and --list --load-list f
   prints, exactly the tests whose id is listed by a line of f, in their original order and grouping *)
Theorem C19_cli : forall nms f n, forallb wf_nameb nms = true ->
  cli_list n = leaves n
  /\ cli_run (cli_load nms f n) = filter (listedb nms f) (leaves n)
  /\ cli_list (cli_load nms f n) = filter (listedb nms f) (leaves n)
  /\ paths (cli_load nms f n) = filter (fun p => listedb nms f (snd p)) (paths n).
Proof. exact (fun nms f n W => conj (iterate_leaves n) (cli_load_runs nms f n W)). Qed.
Print Assumptions C19_cli.

(* the reader of the list file (binary readlines + strip) puts an id into the set exactly when some
   line of the file is that id surrounded by nothing but ASCII whitespace: a line is ONE id, blanks
   inside it separate nothing *)
Theorem C19_load_list : forall nm f, wf_nameb nm = true ->
  (memb nm (load_ids f) = true <-> Lists f nm) /\ (file_lists f nm = true <-> Lists f nm).
Proof.
  intros nm f W. assert (F : file_lists f nm = true <-> Lists f nm).
  { unfold file_lists, Lists. rewrite existsb_exists. split.
    - intros (line & I & L). apply (line_lists_iff nm line W) in L as (a & b & E & A & B).
      exists line, a, b. repeat split; assumption.
    - intros (line & a & b & I & E & A & B). exists line. split; [exact I|].
      apply (line_lists_iff nm line W). exists a, b. repeat split; assumption. }
  split; [|exact F]. rewrite (load_ids_lists nm f (wf_name_ends nm W)). exact F.
Qed.
Print Assumptions C19_load_list.

(* "the lines of the file" ([split_lf], used by Lists) are the pieces between line feeds *)
Theorem C19_lines : forall f, join_lf (split_lf f) = f /\ Forall (fun l => ~ In 10%N l) (split_lf f).
Proof. exact (fun f => conj (split_lf_join f) (split_lf_no_lf f)). Qed.
Print Assumptions C19_lines.

(* `run --list > f` followed by `run --load-list f` runs every test *)
Theorem C19_list_then_load : forall nms n, forallb wf_nameb nms = true ->
  (forall i, In i (iterate n) -> i < length nms) ->
  cli_run (cli_load nms (list_output nms (cli_list n)) n) = iterate n.
Proof.
  intros nms n W B. destruct (cli_load_runs nms (list_output nms (cli_list n)) n W) as (-> & _).
  unfold cli_list, list_test. rewrite <- iterate_leaves. apply ListFacts.filter_all.
  intros i I. exact (listed_own_output nms (iterate n) i W B I).
Qed.
Print Assumptions C19_list_then_load.

(* the correspondence compares observations exactly *)
Theorem C19_obs_eqb : forall a b, obs_eqb a b = true <-> a = b.
Proof.
  intros a b. destruct a as [a1 a2 a3 a4 a5 a6 a7], b as [b1 b2 b3 b4 b5 b6 b7]. unfold obs_eqb; simpl.
  rewrite !andb_true_iff.
  rewrite (nats_eqb_spec a1 b1), (list_eqb_spec group_eqb group_eqb_spec a2 b2),
    (nats_eqb_spec a4 b4), (nats_eqb_spec a5 b5), (nats_eqb_spec a6 b6), (nats_eqb_spec a7 b7),
    (res_eqb_spec _ exn_eqb (list_eqb_spec _ (pair_eqb_spec _ _ bool_eqb_spec nats_eqb_spec)) exn_eqb_spec a3 b3).
  split; [intros [[[[[[-> ->] ->] ->] ->] ->] ->]; reflexivity
         | intro H; injection H as -> -> -> -> -> -> ->; repeat split].
Qed.
Print Assumptions C19_obs_eqb.

(* non-vacuity: a tree with nested plain and custom suites, an empty custom suite, a sorting suite *)
Example C19_example :
  let t := Plain [Case 3; Custom false false [Case 9; Case 1]; Plain [Case 2; Custom true false [Case 8; Case 5]];
                  Custom false false []] in
  iterate t = [3; 9; 1; 2; 8; 5]
  /\ iterate (filter_ids (fun i => Nat.leb i 3) t) = [3; 1; 2]
  /\ (match sorted_tests false t with Ok r => iterate r | Raised _ => [] end) = [2; 3; 5; 8; 9; 1]
  /\ sorted_tests false (Plain [Case 1; Plain [Case 1]]) = Raised ValueError.
Proof. vm_compute. repeat split. Qed.

(* non-vacuity of the list-file clause: ids "a", "a b", "b"; the file " a b \r\n\nb" (no final
   newline) lists "a b" and "b" but not "a" *)
Example C19_example_load_list :
  let nms := [[97]; [97; 32; 98]; [98]]%N in
  let f := [32; 97; 32; 98; 32; 13; 10; 10; 98]%N in
  let t := Plain [Case 0; Custom false true [Case 1; Case 2]] in
  forallb wf_nameb nms = true
  /\ load_ids f = [[97; 32; 98]; []; [98]]%N
  /\ cli_run (cli_load nms f t) = [1; 2]
  /\ filter (listedb nms f) (leaves t) = [1; 2].
Proof. vm_compute. repeat split. Qed.
