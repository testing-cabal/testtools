(* C16 - Content is lossless and independent of chunking.
   The statements; each proof is `exact <lemma>` or a few lines from the lemmas of Proof/C16.v or
   Proof/Utf8Enc.v. *)
From Coq Require Import String Permutation.
From TT Require Import Lib.Base Lib.EqbFacts Lib.Sort Model.Utf8 Model.MimeCt Model.Content Spec.C16 Corr.C16 Proof.Utf8Enc Proof.C16.

(* The model meets the whole statement on every input of the eleven scenario kinds: every text over Unicode scalar
   values, every chunk list, every byte string under all its splits, every source content / position / seek offset
   (any integer) / origin / chunk_size >= 1 / buffer_now / read-size oracle of the stream (any sequence of short
   reads), every mutable list and mutation sequence, every pair of contents, every history of reads on one content
   object (any number of readers created, advanced alternately, abandoned, drained), every content type of the modelled
   domain - outside the known finding F16 (full statement: the same without the finding_F16 hypothesis; it is false,
   see C16_refuted_F16). *)
Theorem C16_holds : forall i : input, wf i = true -> finding_F16 i = false -> spec_okb i (model i) = true.
Proof. exact model_meets_spec. Qed.
Print Assumptions C16_holds.

(* F16: a content type inside the modelled domain (and inside the property's quantifier: lower-case token
   type/subtype, no quote character) that does not survive repr + _make_content_type: text/plain; a="b\c". *)
Theorem C16_refuted_F16 : exists i, wf i = true /\ finding_F16 i = true /\ spec_okb i (model i) = false.
Proof. exact refuted_F16. Qed.
Print Assumptions C16_refuted_F16.

(* the executable statement implies the readable one (Spec.C16.Spec) *)
Theorem C16_statement : forall i o, spec_okb i o = true -> Spec i o.
Proof. exact spec_okb_sound. Qed.
Print Assumptions C16_statement.

(* the correspondence compares observations exactly, up to re-chunking of byte streams
   (alpha keeps the joined bytes and whether every chunk is non-empty) *)
Theorem C16_obs_eqb : forall a b, obs_eqb a b = true <-> alpha a = alpha b.
Proof.
  intros a b. destruct a, b; cbn [obs_eqb alpha]; try (split; [discriminate|discriminate]).
  - (* OText *) eapply iff_trans.
    { apply andb_iff; [|apply tres_eqb_spec]. apply andb_iff; [apply ctype_eqb_spec|apply bytes_eqb_spec]. }
    split; [intro H; decompose [and] H; congruence | intro E; injection E; intros; subst; repeat split; assumption].
  - (* OJson *) eapply iff_trans.
    { apply andb_iff; [apply ctype_eqb_spec|apply bytes_eqb_spec]. }
    split; [intro H; decompose [and] H; congruence | intro E; injection E; intros; subst; repeat split; assumption].
  - (* OChunks *) eapply iff_trans.
    { apply andb_iff; [apply bytes_eqb_spec|apply tres_eqb_spec]. }
    split; [intro H; decompose [and] H; congruence | intro E; injection E; intros; subst; repeat split; assumption].
  - (* OSplits *) eapply iff_trans; [apply (list_eqb_spec _ (pair_eqb_spec _ _ tres_eqb_spec Nat.eqb_eq))|].
    split; congruence.
  - (* OReader: chunk lists up to alpha_b *) eapply iff_trans.
    { apply andb_iff; [|apply bool_eqb_spec]. apply andb_iff; [|apply bres_eqb_spec].
      apply andb_iff; [|apply bool_eqb_spec]. apply andb_iff; [|apply bres_eqb_spec].
      apply andb_iff; [apply (option_eqb_spec _ exn_eqb_spec)|apply bool_eqb_spec]. }
    split; [intro H; decompose [and] H; congruence | intro E; injection E; intros; subst; repeat split; assumption].
  - (* OSnap *) eapply iff_trans.
    { apply andb_iff; [|apply bres_eqb_spec]. apply andb_iff; [|apply bool_eqb_spec].
      apply andb_iff; [|apply bres_eqb_spec]. apply andb_iff; [|apply bres_eqb_spec].
      apply andb_iff; [apply (option_eqb_spec _ exn_eqb_spec)|apply bool_eqb_spec]. }
    split; [intro H; decompose [and] H; congruence | intro E; injection E; intros; subst; repeat split; assumption].
  - (* OSnapList *) eapply iff_trans.
    { apply andb_iff; [|apply bres_eqb_spec]. apply andb_iff; [|apply bres_eqb_spec].
      apply andb_iff; [apply bool_eqb_spec|apply bres_eqb_spec]. }
    split; [intro H; decompose [and] H; congruence | intro E; injection E; intros; subst; repeat split; assumption].
  - (* OReaderList *) eapply iff_trans.
    { apply andb_iff; [apply bres_eqb_spec|apply bres_eqb_spec]. }
    split; [intro H; decompose [and] H; congruence | intro E; injection E; intros; subst; repeat split; assumption].
  - (* OEq *) eapply iff_trans.
    { apply andb_iff; [apply bool_eqb_spec|apply bool_eqb_spec]. }
    split; [intro H; decompose [and] H; congruence | intro E; injection E; intros; subst; repeat split; assumption].
  - (* OMime: whether the type survived *) eapply iff_trans.
    { apply andb_iff; [apply ctype_eqb_spec|apply bool_eqb_spec]. }
    split; [intro H; decompose [and] H; congruence | intro E; injection E; intros; subst; repeat split; assumption].
  - (* OHist *) eapply iff_trans; [apply (list_eqb_spec _ hres_eqb_spec)|]. split; congruence.
Qed.
Print Assumptions C16_obs_eqb.

(* ---- bytes: what iter_bytes yields is what the source yields ---- *)
Theorem C16_bytes :
  (forall ct cs w, iter_bytes {| c_type := ct; c_src := Stored cs |} w = (Ok cs, w))
  /\ (forall s w, iter_bytes (text_content s) w = (Ok [utf8_encode s], w))
  /\ (forall ct k n sk w p, 1 <= n -> start_of k (length (w_data w)) (w_pos w) sk = Ok p ->
        exists cs w', iter_bytes {| c_type := ct; c_src := Live k n sk |} w = (Ok cs, w')
                      /\ concat cs = skipn p (w_data w) /\ w_data w' = w_data w).
Proof.
  split; [exact iter_bytes_stored|]. split; [reflexivity|]. intros ct k n sk w p Hn Hs.
  pose proof (run_reader_spec k n sk w Hn) as H. rewrite Hs in H. destruct H as [cs [R [_ [_ Hc]]]].
  exists cs. eexists. split; [exact R|]. split; [exact Hc|reflexivity].
Qed.
Print Assumptions C16_bytes.

(* ---- chunking: proved once for EVERY decoder that is a fold of a byte automaton: the pieces _iter_text yields
   (one decoder, every chunk in order, one flush), joined, are the whole-string decode of the joined bytes;
   in particular an undecodable string is an error under every split ---- *)
Theorem C16_chunking : forall (C : codec) (chunks : list chunk),
  option_map (@concat N) (iter_text_loop C (dinit C) chunks) = decode_whole C (concat chunks).
Proof. exact chunking. Qed.
Print Assumptions C16_chunking.

(* ... instantiated: as_text of a text content in either charset (any spelling codec_of knows, or none) is the
   whole-string decode, however the bytes are cut *)
Theorem C16_chunking_as_text : forall C ct chunks w,
  ct_type ct = sb "text" -> codec_of (declared_charset ct) = Some C ->
  fst (as_text {| c_type := ct; c_src := Stored chunks |} w) = whole C (concat chunks).
Proof. intros C ct chunks w Ht HC. rewrite as_text_stored, Ht, HC, str_eqb_refl. reflexivity. Qed.
Print Assumptions C16_chunking_as_text.

Theorem C16_chunking_indep : forall ct c1 c2 w, concat c1 = concat c2 ->
  fst (as_text {| c_type := ct; c_src := Stored c1 |} w) = fst (as_text {| c_type := ct; c_src := Stored c2 |} w).
Proof. intros ct c1 c2 w E. rewrite !as_text_stored, E. reflexivity. Qed.
Print Assumptions C16_chunking_indep.

Theorem C16_chunking_utf8_error : forall chunks,
  decode_whole utf8 (concat chunks) = None <-> iter_text_loop utf8 U0 chunks = None.
Proof.
  intro chunks. pose proof (chunking utf8 chunks) as H. unfold joined_text in H. change (dinit utf8) with U0 in H.
  destruct (iter_text_loop utf8 U0 chunks); simpl in H; rewrite <- H; split; congruence.
Qed.
Print Assumptions C16_chunking_utf8_error.

Theorem C16_latin1_total : forall bs, decode_whole latin1 bs = Some bs.
Proof. exact latin1_total. Qed.
Print Assumptions C16_latin1_total.

(* the enumeration the correspondence uses for "every split" misses none *)
Theorem C16_splits_complete : forall l s, Forall (fun c => c <> []) s -> concat s = l -> In s (splits l).
Proof. exact splits_complete. Qed.
Print Assumptions C16_splits_complete.

(* ---- text round trip.  Per code point: for all 1,112,064 scalar values (the 2,048 surrogates are exempt), by
   arithmetic on the base-64 digits of the code point, Proof/Utf8Enc.v; strings: induction, using that the
   automaton is back in its initial state after every encoded code point ---- *)
Theorem C16_utf8_code_point : forall c, is_scalar c = true -> feed utf8 U0 (utf8_enc1 c) = Some (U0, [c]).
Proof. exact utf8_enc1_decodes. Qed.
Print Assumptions C16_utf8_code_point.

Theorem C16_utf8_roundtrip : forall s, forallb is_scalar s = true -> decode_whole utf8 (utf8_encode s) = Some s.
Proof. exact utf8_roundtrip. Qed.
Print Assumptions C16_utf8_roundtrip.

Theorem C16_text_roundtrip : forall s w, forallb is_scalar s = true -> as_text (text_content s) w = (Ok s, w).
Proof. exact text_roundtrip. Qed.
Print Assumptions C16_text_roundtrip.

(* ---- json_content: for EVERY dumps function the bytes are the UTF-8 of dumps d (loads . dumps = id is json's
   contract and is not modelled) ---- *)
Theorem C16_json : forall (J : Type) (dumps : J -> list N) d w,
  iter_bytes (json_content J dumps d) w = (Ok [utf8_encode (dumps d)], w)
  /\ c_type (json_content J dumps d) = Gen.Ctc16.JSON
  /\ (forallb is_scalar (dumps d) = true -> decode_whole utf8 (utf8_encode (dumps d)) = Some (dumps d)).
Proof. exact (fun J dumps d w => conj eq_refl (conj eq_refl (utf8_roundtrip (dumps d)))). Qed.
Print Assumptions C16_json.

(* ---- _iter_chunks: for every data, offset (any integer), origin in {SEEK_SET, SEEK_END}, chunk_size >= 1, BytesIO or
   file, and EVERY read-size oracle w_sizes w (a stream whose read(n) returns any 1..n bytes while data remains:
   unbuffered pipe, socket, raw device): the supplied fuel (remaining length + 1) suffices, the chunks are non-empty,
   each <= chunk_size, and
   concatenate to the bytes from the start position - clamped as the stream clamps it - to EOF; one read per chunk
   plus the final empty one ---- *)
Theorem C16_iter_chunks : forall k n off wh w, 1 <= n ->
  match seek_pos k (length (w_data w)) off wh with
  | Ok p => exists cs, run_reader k n (Some (off, wh)) w = (Ok cs, after_read k w p (S (length cs)))
                       /\ Forall (fun c => c <> []) cs /\ Forall (fun c => length c <= n) cs
                       /\ concat cs = skipn p (w_data w)
  | Raised e => run_reader k n (Some (off, wh)) w = (Raised e, w)
  end.
Proof. exact (fun k n off wh w => run_reader_spec k n (Some (off, wh)) w). Qed.
Print Assumptions C16_iter_chunks.

Theorem C16_iter_chunks_clamp : forall len off,
  seek_pos KBytesIO len off SeekEnd = Ok (Z.to_nat (Z.max 0 (Z.of_nat len + off))).
Proof.
  intros len off. unfold seek_pos. destruct (Z.ltb_spec (Z.of_nat len + off) 0).
  - rewrite Z.max_l by lia. reflexivity.
  - rewrite Z.max_r by lia. reflexivity.
Qed.
Print Assumptions C16_iter_chunks_clamp.

(* the read loop under ANY oracle (sizes : list nat is arbitrary: entries are clamped to 1..n, an exhausted oracle
   means full reads): it stops at the empty read and at nothing else - a short read is not end of file *)
Theorem C16_read_loop : forall fuel data pos n sizes, 1 <= n -> length data - pos < fuel ->
  exists cs, read_loop fuel data pos n sizes = Some (cs, Nat.max pos (length data), S (length cs))
             /\ Forall (fun c => c <> []) cs /\ Forall (fun c => length c <= n) cs
             /\ concat cs = skipn pos data.
Proof. exact read_loop_spec. Qed.
Print Assumptions C16_read_loop.

(* ---- lazy: without buffer_now creation touches nothing (the world, read counter included, is unchanged) and every
   iteration runs the reader on the world as it is THEN; with buffer_now the reader runs at creation and later
   iterations return the stored chunks from any world without touching it ---- *)
Theorem C16_lazy :
  (forall k ct n sk w,
     content_from_source k ct n false sk w
     = (Ok {| c_type := match ct with None => Gen.Ctc16.UTF8_TEXT | Some c => c end; c_src := Live k n sk |}, w))
  /\ (forall ct k n sk w', iter_bytes {| c_type := ct; c_src := Live k n sk |} w' = run_reader k n sk w')
  /\ (forall k ct n sk w,
        match run_reader k n sk w with
        | (Ok cs, w1) => exists c, content_from_source k ct n true sk w = (Ok c, w1)
                                   /\ forall w', iter_bytes c w' = (Ok cs, w')
        | (Raised e, w1) => content_from_source k ct n true sk w = (Raised e, w1)
        end).
Proof.
  split; [reflexivity|]. split; [reflexivity|]. intros k ct n sk w.
  unfold content_from_source, content_from_reader. cbn [iter_src].
  destruct (run_reader k n sk w) as [[cs|e] w1]; [|reflexivity].
  eexists. split; [reflexivity|]. intro w'. reflexivity.
Qed.
Print Assumptions C16_lazy.

(* ---- __eq__ <-> equal type and equal joined bytes ---- *)
Theorem C16_eq : forall ta ca tb cb w,
  fst (content_eq {| c_type := ta; c_src := Stored ca |} {| c_type := tb; c_src := Stored cb |} w) = Ok true
  <-> CtSame ta tb /\ concat ca = concat cb.
Proof.
  intros ta ca tb cb w. rewrite content_eq_stored. cbn [fst].
  rewrite <- ct_eqb_iff, <- bytes_eqb_spec, <- andb_true_iff.
  split; [intro H; injection H; auto|intro H; rewrite H; reflexivity].
Qed.
Print Assumptions C16_eq.

(* ---- histories of reads on ONE content object: whatever readers were created before, however far each was
   advanced, in whatever interleaving, abandoned or drained - every COMPLETE read (as_text(), or all a reader
   collected from its first piece to exhaustion) is the whole-string decode of the joined bytes (an undecodable
   string: the error), for every decoder that is a fold of a byte automaton ---- *)
Theorem C16_history : forall C ct chunks oracle ops k t,
  ct_type ct = sb "text" -> codec_of (declared_charset ct) = Some C ->
  nth_error (read_history ct chunks oracle ops) k = Some (RRead t) -> t = whole C (concat chunks).
Proof.
  intros C ct chunks oracle ops k t Ht HC Hk. destruct (hist_spec ct chunks oracle ops) as [_ [_ R]].
  specialize (R k t Hk Ht). rewrite HC in R. exact R.
Qed.
Print Assumptions C16_history.

Theorem C16_history_answers : forall ct chunks oracle ops,
  length (read_history ct chunks oracle ops) = length ops
  /\ forall k, nth_error ops k = Some HAsText -> exists t, nth_error (read_history ct chunks oracle ops) k = Some (RRead t).
Proof. exact history_answers. Qed.
Print Assumptions C16_history_answers.

(* ... because a reader owns its decoder: a new reader drained gives the whole-string decode; a next() in between
   does not change what the reader will hold at the end; draining twice changes nothing; an operation on reader j
   leaves every other reader as it was *)
Theorem C16_readers_independent : forall C,
  (forall chunks, ti_result C (ti_finish C (ti_fresh C chunks)) = whole C (concat chunks))
  /\ (forall it, ti_finish C (ti_step C it) = ti_finish C it)
  /\ (forall it, ti_finish C (ti_finish C it) = ti_finish C it)
  /\ (forall (its : list (titer C)) i j x, i <> j -> nth_error (upd j x its) i = nth_error its i).
Proof. exact readers_independent. Qed.
Print Assumptions C16_readers_independent.

(* ---- parse (render ct) = ct for wf_ct ---- *)
Theorem C16_mime_roundtrip : forall ct, wf_ct ct = true ->
  exists ct', make_content_type (render ct) = Ok ct' /\ CtSame ct' ct.
Proof. exact mime_roundtrip_same. Qed.
Print Assumptions C16_mime_roundtrip.

(* ---- snapshots: _copy_content puts the chunks into a NEW list object (a location that did not exist before, so
   shared with nothing - in particular not with a list the source's callback may have handed out); the copy has the
   type of the original and yields, from ANY later world that still has those chunks at that location and without
   touching it, exactly what the original yielded at copy time ---- *)
Theorem C16_snapshot : forall c w cp w1, copy_content c w = (Ok cp, w1) ->
  c_type cp = c_type c
  /\ exists cs w', iter_bytes c w = (Ok cs, w')
                   /\ c_src cp = InList (length (w_heap w))
                   /\ w_heap w1 = w_heap w ++ [cs]
                   /\ forall w2, heap_get (length (w_heap w)) (w_heap w2) = cs -> iter_bytes cp w2 = (Ok cs, w2).
Proof. exact snapshot. Qed.
Print Assumptions C16_snapshot.

(* ... hence no sequence of writes to locations that existed when the copy was made (the source's own list
   included) and no change of the stream/file reaches the copy *)
Theorem C16_snapshot_unaffected : forall c w cp w1 cs w',
  copy_content c w = (Ok cp, w1) -> iter_bytes c w = (Ok cs, w') ->
  forall writes : list (loc * list chunk), Forall (fun lv => fst lv < length (w_heap w)) writes ->
  forall d p r sz,
    let w2 := {| w_data := d; w_pos := p; w_reads := r;
                 w_heap := fold_left (fun h lv => heap_set (fst lv) (snd lv) h) writes (w_heap w1);
                 w_sizes := sz |} in
    iter_bytes cp w2 = (Ok cs, w2).
Proof. exact snapshot_unaffected. Qed.
Print Assumptions C16_snapshot_unaffected.

(* the tables read from the live code say what the model relies on *)
Theorem C16_tables : str_eqb (ct_type Gen.Ctc16.UTF8_TEXT) (sb "text") = true
                     /\ codec_of (declared_charset Gen.Ctc16.UTF8_TEXT) = Some utf8.
Proof. exact utf8_text_ct. Qed.
Print Assumptions C16_tables.

(* non-vacuity: an astral + combining + NUL text round-trips; a 3-byte sequence cut in the middle with an empty
   chunk in between decodes, its truncation raises under a split; a read loop over 5 bytes from offset -4 (SEEK_END)
   in chunks of 2; the same through a stream that hands out 1, then 1, then full reads; a reader abandoned inside a
   3-byte sequence, a second reader and as_text() interleaved with it, every complete read is the euro sign; an
   unbuffered content sees the later world, the snapshot does not; a copy gathered from a
   mutable list keeps its chunks when the list is cleared and refilled; a wf_ct type with two
   parameters round-trips; the F16 witness does not *)
Example C16_example :
  as_text (text_content [0x1F600; 0x65; 0x301; 0]%N) w0 = (Ok [0x1F600; 0x65; 0x301; 0]%N, w0)
  /\ fst (as_text {| c_type := Gen.Ctc16.UTF8_TEXT; c_src := Stored [[0xE2; 0x82]; []; [0xAC]]%N |} w0) = Ok [0x20AC%N]
  /\ fst (as_text {| c_type := Gen.Ctc16.UTF8_TEXT; c_src := Stored [[0xE2]; [0x82]]%N |} w0) = Raised UnicodeDecodeError
  /\ fst (run_reader KBytesIO 2 (Some ((-4)%Z, SeekEnd)) (w_init [1; 2; 3; 4; 5]%N 0 [])) = Ok [[2; 3]; [4; 5]]%N
  /\ fst (run_reader KBytesIO 2 (Some ((-4)%Z, SeekEnd)) (w_init [1; 2; 3; 4; 5]%N 0 [1; 1])) = Ok [[2]; [3]; [4; 5]]%N
  /\ read_history Gen.Ctc16.UTF8_TEXT [[0xE2; 0x82]; [0xAC]]%N None
                  [HNew; HNext 0; HAsText; HNew; HNext 1; HNext 0; HFinish 1; HFinish 0]
     = [RNew None; RStepped; RRead (Ok [0x20AC%N]); RNew None; RStepped; RStepped; RRead (Ok [0x20AC%N]); RRead (Ok [0x20AC%N])]
  /\ (let c := {| c_type := Gen.Ctc16.UTF8_TEXT; c_src := Live KFile 2 None |} in
      match copy_content c (w_init [1; 2; 3]%N 0 []) with
      | (Ok cp, w1) => fst (iter_bytes cp (set_source w1 [9]%N 0)) = Ok [[1; 2]; [3]]%N
                       /\ fst (iter_bytes c (set_source w1 [9]%N 0)) = Ok [[9]]%N
      | _ => False
      end)
  /\ model (ISnapList {| sl_tuple := false; sl_buf := [[1]; [2]]%N; sl_ops := [LClear; LAppend [7%N]] |})
     = OSnapList true (Ok [[1]; [2]]%N) (Ok [[1]; [2]]%N) (Ok [[7]]%N)
  /\ wf_ct {| ct_type := sb "text"; ct_sub := sb "x-traceback";
              ct_params := [(sb "language", sb "python"); (sb "charset", sb "utf8")] |} = true
  /\ finding_F16 (IMime {| ct_type := sb "text"; ct_sub := sb "plain"; ct_params := [(sb "a", sb "b\c")] |}) = true.
Proof. vm_compute. repeat split. Qed.
