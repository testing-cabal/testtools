(* C04 - run verdict and stop control are consistent with the outcomes reported.
   The statements; each proof is `exact <lemma>` or a few lines from the lemmas of Proof/C04.v. *)
From TT Require Import Lib.Base Model.Result Spec.C04 Corr.C04 Proof.C04.

(* The model meets the whole statement for every stack (any nesting of MultiTestResult,
   ThreadsafeForwardingResult, ExtendedToOriginalDecorator, TestResultDecorator/Tagger over TestResult /
   TextTestResult / ExtendedToStreamDecorator results and over ExtendedToOriginalDecorator-wrapped foreign results
   of ANY capability record: unittest.TestResult, 2.6 / 2.7 / extended / Twisted-style objects), every failfast
   configuration outside known finding F18, and every history of calls - outcomes reported with a details dict or
   the original way - made one after the other, or made by several threads, each through its own
   ThreadsafeForwardingResult over the same target and semaphore, under EVERY schedule. *)
Theorem C04_holds : forall i : input, wf i -> finding_F18 i = false -> spec_okb i (model i) = true.
Proof.
  intros i [Hwf _] Hf. unfold spec_okb. destruct (conc i) as [[ths sch]|] eqn:Ec.
  - destruct (conc_model i ths sch Ec) as [h [Hh ->]]. cbn [o_order model_seq]. rewrite Hh.
    apply model_seq_meets_spec; assumption.
  - unfold model. rewrite Ec. apply model_seq_meets_spec; assumption.
Qed.
Print Assumptions C04_holds.

(* ... and the executable statement implies the readable one (Spec.C04.Spec). *)
Theorem C04_statement : forall i o, spec_okb i o = true -> Spec i o.
Proof.
  intros i o H. unfold spec_okb in H. unfold Spec. destruct (conc i) as [[ths sch]|].
  - destruct (merge ths (o_order o)) as [h|]; [|discriminate]. exists h. split; [reflexivity|].
    apply spec_seq_sound. exact H.
  - apply andb_true_iff in H as [H1 H2]. split; [destruct (o_order o); [reflexivity|discriminate]|].
    apply spec_seq_sound. exact H2.
Qed.
Print Assumptions C04_statement.

(* F18 (known finding): with failfast assigned on a ThreadsafeForwardingResult after wrapping, or a
   failfast=True result put into a MultiTestResult, the faithful model violates the full statement. *)
Theorem C04_refuted_F18 :
  (wf witness_F18a /\ finding_F18 witness_F18a = true /\ spec_okb witness_F18a (model witness_F18a) = false)
  /\ (wf witness_F18b /\ finding_F18 witness_F18b = true /\ spec_okb witness_F18b (model witness_F18b) = false).
Proof. exact refuted_F18. Qed.
Print Assumptions C04_refuted_F18.

(* ... and F18 is confined to the two situations it names: failfast assigned on the outermost object of a stack
   that contains a ThreadsafeForwardingResult / TestResultDecorator / Tagger, or a failfast=True result inside a
   MultiTestResult.  Everywhere else C04_holds applies. *)
Theorem C04_F18_confined : forall i, finding_F18 i = true ->
  set_on_wrapper_stack i = true \/ ff_ctor_in_multi (stack i) = true.
Proof. exact finding_F18_confined. Qed.
Print Assumptions C04_F18_confined.

(* verdict: wasSuccessful() after any calls = no error / failure / unexpected success since the last startTestRun *)
Theorem C04_verdict : forall i pre, wf i -> finding_F18 i = false -> has_e2s i = false -> has_foreign i = false ->
  was_ok (fold_left do_op pre (init (stack i) (set_after i))) = want_ok pre.
Proof. exact (fun i pre W => was_ok_after i pre (proj1 W)). Qed.
Print Assumptions C04_verdict.

(* summaries: every TextTestResult in the stack, at every stopTestRun: test count, OK / FAILED (failures=n),
   one section per problem - all computed from the calls since the last startTestRun *)
Theorem C04_summary : forall i, finding_F18 i = false ->
  Forall2 (fun li sums => (if li_text li
                           then forall2b (summary_okb (li_tfr li)) (before_stop_runs [] (hist i)) sums
                           else match sums with [] => true | _ => false end) = true)
          (leaf_infos (stack i))
          (leaf_outs (fold_left do_op (hist i) (init (stack i) (set_after i)))).
Proof. exact sums_after. Qed.
Print Assumptions C04_summary.

(* failfast / stop: shouldStop of every underlying result after any calls = stop() was called on it or on
   something above it, or failfast is set and a bad outcome was reported - since the last startTestRun
   (Spec.C04.scope: for a foreign result, which never clears shouldStop, since it was created);
   in particular not before the first bad outcome *)
Theorem C04_failfast : forall i pre, finding_F18 i = false ->
  leaf_stops (fold_left do_op pre (init (stack i) (set_after i)))
  = map (want_leaf_stop i pre) (leaf_infos (stack i)).
Proof. exact leaf_stops_after. Qed.
Print Assumptions C04_failfast.

(* stop() on any node sets shouldStop on every result below it; the outermost shouldStop is the
   disjunction over the underlying results (what a suite consults) *)
Theorem C04_stop_reaches : forall p n,
  Forall2 (fun pa b => is_prefix p pa = true -> b = true) (fpaths (frame n)) (leaf_stops (stop_at p n))
  /\ Forall (fun b => b = true) (leaf_stops (stop n))
  /\ should_stop n = existsb (fun b => b) (leaf_stops n).
Proof. exact (fun p n => conj (stop_at_reaches p n) (conj (stop_reaches_all n) (should_stop_any n))). Qed.
Print Assumptions C04_stop_reaches.

(* several ThreadsafeForwardingResults over one target, one thread each, any programs, any schedule: the
   scheduler never deadlocks and every call of every thread takes effect exactly once, per thread in program order
   (in particular a stop() made while a sibling holds the semaphore waits and then reaches the target) ... *)
Theorem C04_conc_complete : forall ths sch,
  exists h, merge ths (linear_order ths sch) = Some h /\ length h = length (concat ths).
Proof.
  exact (fun ths sch => match linear_order_complete ths sch with
                        | ex_intro _ h H => ex_intro _ h (conj H (merge_length _ _ _ H)) end).
Qed.
Print Assumptions C04_conc_complete.

(* ... and what is observed is what the calls give when made one after the other in that order, to which
   C04_verdict / C04_summary / C04_failfast / C04_stop_reaches apply *)
Theorem C04_conc_model : forall i ths sch, conc i = Some (ths, sch) ->
  exists h, merge ths (linear_order ths sch) = Some h
            /\ model i = model_seq (with_hist i (hist i ++ h)) (linear_order ths sch).
Proof. exact conc_model. Qed.
Print Assumptions C04_conc_model.

(* ExtendedToOriginalDecorator over a foreign result, every path of its outcome methods (the object has / lacks
   addUnexpectedSuccess, accepts / refuses details=, has a failfast attribute or the decorator keeps _failfast,
   acts on failfast itself or not, has stop() or the decorator keeps _shouldStop; details passed or not): the
   target's shouldStop becomes true exactly when failfast is set and the outcome is an error, a failure or an
   unexpected success; stop() reaches it; assigning failfast on the decorator is what it then reads *)
Theorem C04_foreign_paths : forall (f : fo) (k : kind) (d : bool),
  fo_stopped (fo_outcome f k d) = fo_stopped f || (bad k && fo_ff f).
Proof. exact fo_stopped_outcome. Qed.
Print Assumptions C04_foreign_paths.

Theorem C04_foreign_control : forall (f : fo) (b : bool),
  should_stop (stop (NFor f)) = true /\ get_ff (set_ff b (NFor f)) = b
  /\ should_stop (set_ff b (NFor f)) = should_stop (NFor f).
Proof. exact (fun f b => conj eq_refl (conj eq_refl eq_refl)). Qed.
Print Assumptions C04_foreign_control.

(* one call, seen from the underlying results: each receives it (as a whole test below a forwarder) and is
   stopped exactly when the call is a bad outcome and the stack's failfast reaches it - for EVERY state *)
Theorem C04_step : forall n o, lvs (do_op n o) = map2 (fun s l => leaf_do s l o) (statics (frame n)) (lvs n)
                               /\ frame (do_op n o) = frame n.
Proof. exact (fun n o => conj (do_op_ok n o) (frame_do_op n o)). Qed.
Print Assumptions C04_step.

(* run.py: sys.exit(not result.wasSuccessful()).  exit_status is what the operating system reports: the argument
   of sys.exit modulo 256.  It is 0 exactly for a successful run; the argument is a truth value, so the truncation
   loses nothing - whereas any status that grows with the number of problems is reported as 0 (success) whenever
   that number is a multiple of 256. *)
Theorem C04_exit : forall ok, exit_status ok = 0 <-> ok = true.
Proof. exact exit_status_ok. Qed.
Print Assumptions C04_exit.
(* ... and for the run as a whole: the status is 0 exactly when no error / failure / unexpected success was
   reported since the last startTestRun - independently of how many tests were started: none at all (an empty
   selection, tests skipped without startTest) gives 0, a problem reported without any startTest (a failing
   setUpClass) gives non-zero *)
Theorem C04_exit_history : forall i pre, wf i -> finding_F18 i = false -> has_e2s i = false -> has_foreign i = false ->
  (exit_status (was_ok (fold_left do_op pre (init (stack i) (set_after i)))) = 0
   <-> existsb is_problem (since_run pre) = false).
Proof. exact (fun i pre W => exit_after i pre (proj1 W)). Qed.
Print Assumptions C04_exit_history.
Theorem C04_exit_no_truncation : forall ok, exit_arg ok < 256 /\ exit_status ok = exit_arg ok.
Proof. exact (fun ok => conj (exit_arg_small ok) (Nat.mod_small _ _ (exit_arg_small ok))). Qed.
Print Assumptions C04_exit_no_truncation.
Theorem C04_exit_counting_wraps : forall n, os_status (256 * n) = 0.
Proof. intro n. unfold os_status. rewrite Nat.mul_comm. apply Nat.mod_mul. discriminate. Qed.
Print Assumptions C04_exit_counting_wraps.

(* table obligation, re-stated against Gen/Resulttabs.v on every run: StreamFailFast reacts exactly to the
   status words ExtendedToStreamDecorator emits for addError / addFailure / addUnexpectedSuccess *)
Theorem C04_table_failfast : forall k, in_words (status_of k) Gen.Resulttabs.failfast_statuses = bad k.
Proof. exact table_failfast. Qed.
Print Assumptions C04_table_failfast.

(* the correspondence compares observations exactly *)
Theorem C04_obs_eqb : forall a b, obs_eqb a b = true <-> a = b.
Proof.
  intros a b. pose proof (list_eqb_spec _ lbool_eqb_spec) as Hl.
  pose proof (list_eqb_spec _ (list_eqb_spec _ summary_eqb_spec)) as Hs. split.
  - destruct a, b. unfold obs_eqb; simpl. intro H. repeat (apply andb_true_iff in H as [H ?]).
    f_equal; [apply lbool_eqb_spec|apply lbool_eqb_spec|apply Hl|apply Hs|apply nats_eqb_spec]; assumption.
  - intros <-. unfold obs_eqb.
    rewrite !(eqb_spec_refl _ lbool_eqb_spec), (eqb_spec_refl _ Hl), (eqb_spec_refl _ Hs), (eqb_spec_refl _ nats_eqb_spec).
    reflexivity.
Qed.
Print Assumptions C04_obs_eqb.

(* non-vacuity: failfast set after wrapping on a MultiTestResult over a forwarder and an explicit decorator;
   a failure stops both results at once, the summary counts it, a second run starts clean, stop() on the
   forwarder reaches its TextTestResult only *)
Example C04_example :
  let i := {| stack := AMulti [ATFR (ATR false true); AE2O (ATR false false)]; set_after := Some true;
              hist := [StartRun; StartTest 1; Outcome KSuccess true 1; StopTest 1; StartTest 2; Outcome KFailure false 2;
                       StopTest 2; StopRun; StartRun; StopAt [0]]; conc := None |} in
  wf i /\ finding_F18 i = false
  /\ o_ok (model i) = [true; true; true; true; true; false; false; false; true; true]
  /\ o_stop (model i) = [false; false; false; false; false; true; true; true; false; true]
  /\ nth 9 (o_leaf_stop (model i)) [] = [true; false]
  /\ o_sums (model i) = [[{| s_ran := 2; s_failed := Some 1; s_sections := [(1, 2)] |}]; []].
Proof. vm_compute. repeat split. Qed.

(* non-vacuity, foreign results: failfast assigned on a MultiTestResult over a decorated extended-API object (has a
   failfast attribute, does not act on it, accepts details) and a decorated 2.6-style object (no failfast, no
   addUnexpectedSuccess); an expected failure does not stop, the unexpected success reported with details stops
   both, and a new startTestRun does not clear a foreign result's shouldStop *)
Example C04_example_foreign :
  let ext := {| fc_uxs := true; fc_uxs_details := true; fc_details := true; fc_failfast := true; fc_acts := false;
                fc_stop := true; fc_uxs_counts := true; fc_resets := true |} in
  let py26 := {| fc_uxs := false; fc_uxs_details := false; fc_details := false; fc_failfast := false;
                 fc_acts := false; fc_stop := true; fc_uxs_counts := false; fc_resets := false |} in
  let i := {| stack := AMulti [AFor ext; AFor py26]; set_after := Some true;
              hist := [StartRun; StartTest 1; Outcome KXfail true 1; StopTest 1; StartTest 2;
                       Outcome KUxsuccess true 2; StopTest 2; StartRun]; conc := None |} in
  wf i /\ finding_F18 i = false
  /\ o_leaf_stop (model i) = [[false; false]; [false; false]; [false; false]; [false; false]; [false; false];
                              [true; true]; [true; true]; [true; true]]
  /\ o_ok (model i) = [true; true; true; true; true; false; false; false]
  /\ spec_okb i (model i) = true.
Proof. vm_compute. repeat split. Qed.

(* non-vacuity, threads: thread 0 reports a success through its adapter; while it holds the semaphore (parked at
   its release) thread 1 calls stop() on its own adapter: the scheduler cannot run thread 1, thread 0 finishes,
   then the stop() takes effect and the shared TextTestResult is stopped; an unstarted run's verdict stays OK *)
Example C04_example_threads :
  let i := {| stack := ATFR (ATR false true); set_after := None; hist := [StartRun];
              conc := Some ([[Outcome KSuccess false 12]; [StopAt []; StopRun]], [0; 1; 1]) |} in
  wf i /\ finding_F18 i = false
  /\ o_order (model i) = [0; 1; 1]
  /\ o_leaf_stop (model i) = [[false]; [false]; [true]; [true]]
  /\ o_sums (model i) = [[{| s_ran := 1; s_failed := None; s_sections := [] |}]]
  /\ spec_okb i (model i) = true.
Proof. vm_compute. repeat split. Qed.
