(* C18 - routing picks exactly one destination; route prefixes push and pop inversely.
   The statements; each proof is `exact <lemma>` or a few lines from the lemmas of Proof/C18.v
   and Proof/Stepwise.v. *)
From TT Require Import Lib.ListFacts Lib.EqbFacts Proof.Stepwise.
From TT Require Import Lib.Base Model.Router Spec.C18 Corr.C18 Proof.C18.

(* The model meets the whole statement for every router configuration and every history of
   add_rule (accepted or rejected) / startTestRun / stopTestRun / status calls (any order, any
   number of rules, re-mapped keys and shared sinks included); wf asks that the sinks exist, that no
   route code is the empty string, and that no sink object is registered for startTestRun/stopTestRun
   more than once (there "once per run" is ambiguous - per sink or per registration -: outside the
   quantifier). *)
Theorem C18_holds : forall i : input, wf i -> spec_okb i (model i) = true.
Proof.
  intros i H. apply wf_is_base in H. unfold wf_base, wf_baseb in H. apply andb_true_iff in H as [Hs Hr].
  rewrite forallb_forall in Hs. unfold spec_okb. apply andb_true_iff. split.
  - apply model_steps_ok. intros s Hin. apply Nat.ltb_lt, Hs. unfold all_sinks. apply in_or_app. right. exact Hin.
  - unfold model. simpl. rewrite status_routes_roundtrip by exact Hr. apply (eqb_spec_refl _ (list_eqb_spec _ route_eqb_spec)).
Qed.
Print Assumptions C18_holds.

(* ... and the executable statement implies the readable one (Spec.C18.Spec). *)
Theorem C18_statement : forall i o, spec_okb i o = true -> Spec i o.
Proof.
  intros i o.
  unfold spec_okb, Spec. rewrite andb_true_iff. intros [H1 H2].
  apply (steps_sound (steps_okb i) (step_okb i)) in H1 as [L H1]; try reflexivity.
  split; [exact L|]. split; [|apply (list_eqb_spec _ route_eqb_spec); exact H2].
  intros k op so Ho Hso. apply step_okb_sound. exact (H1 k op so Ho Hso).
Qed.
Print Assumptions C18_statement.

(* Exactly one sink per status call, named by the history - for EVERY rule set: keys may be re-mapped
   (a second add_rule for the same route prefix / test id, with another or the same sink) and one sink
   may serve several rules or be the fallback as well.  The k-th call status(e) (through StreamToQueue
   objects with codes via) reaches the sink of the LATEST add_rule made before it for the first segment
   of the route code (no add_rule for that prefix after it: prefix_rules l2 p = []) - so after a
   re-mapping the new sink only -, otherwise the sink of the latest add_rule for its test id, otherwise
   the fallback, otherwise the call raises and nobody receives anything; the event is unchanged except
   that a consuming rule removes exactly the first segment. *)
Theorem C18_one_sink : forall i, wf i -> forall k via e so,
  nth_error (ops i) k = Some (Status via e) -> nth_error (o_steps (model i)) k = Some so ->
  let past := firstn k (ops i) in
  let e0 := pushed via e in
  let n := n_sinks i in
  let no_prefix_rule := forall s p c ss, In (AddPrefix s p c ss) past -> first_seg (e_route e0) <> Some p in
  let no_id_rule := forall s ss, ~ In (AddId s (e_id e0) ss) past in
  (forall l1 l2 s p c ss, past = l1 ++ AddPrefix s p c ss :: l2 -> prefix_rules l2 p = [] ->
     first_seg (e_route e0) = Some p ->
     s_raised so = false
     /\ New_is n (only s (St (if c then set_route e0 (strip_first (e_route e0)) else e0))) (s_new so))
  /\ (no_prefix_rule -> forall l1 l2 s ss, past = l1 ++ AddId s (e_id e0) ss :: l2 -> id_rules l2 (e_id e0) = [] ->
     s_raised so = false /\ New_is n (only s (St e0)) (s_new so))
  /\ (no_prefix_rule -> no_id_rule -> forall f, fb i = Some f ->
     s_raised so = false /\ New_is n (only f (St e0)) (s_new so))
  /\ (no_prefix_rule -> no_id_rule -> fb i = None ->
     s_raised so = true /\ New_is n nobody (s_new so)).
Proof.
  intros i _ k via e so Ho Hso past e0 n no_prefix_rule no_id_rule.
  pose proof (model_status i k via e so Ho Hso) as HN. fold past e0 n in HN.
  split; [|split; [|split]].
  - intros l1 l2 s p c ss Hpast Hl2 Hp. rewrite Hpast, (dest_prefix _ _ _ _ _ _ _ _ Hl2 Hp) in HN. exact HN.
  - intros N l1 l2 s ss Hpast Hl2. rewrite (dest_no_prefix _ _ _ N), Hpast, (by_id_rule _ _ _ _ _ _ Hl2) in HN. exact HN.
  - intros N1 N2 f Hf. rewrite (dest_no_prefix _ _ _ N1), (by_id_fallback _ _ _ N2), Hf in HN. exact HN.
  - intros N1 N2 Hf. rewrite (dest_no_prefix _ _ _ N1), (by_id_fallback _ _ _ N2), Hf in HN. exact HN.
Qed.
Print Assumptions C18_one_sink.

(* push/pop: the consuming slice is the inverse of StreamToQueue.route_code, for None and for any
   number of segments; nested through any chain of StreamToQueue objects and consuming routers;
   and through the model's router itself. *)
Theorem C18_push_pop : forall c r, route_wf r = true ->
  first_seg (route_code c r) = Some c /\ strip_first (route_code c r) = r.
Proof. exact push_pop. Qed.
Print Assumptions C18_push_pop.

Theorem C18_push_pop_nested : forall via e, route_wf (e_route e) = true -> roundtrip via e = e.
Proof. exact roundtrip_id. Qed.
Print Assumptions C18_push_pop_nested.

Theorem C18_push_pop_router : forall r c s e,
  get Nat.eqb c (r_prefixes r) = Some (s, true) -> route_wf (e_route e) = true ->
  route_status r (pushed [c] e) = Some (s, e).
Proof.
  intros r c s e G H. unfold route_status, pushed, push_all. simpl fold_left.
  rewrite e_route_set_route, first_seg_route_code, G.
  rewrite set_route_set_route, strip_route_code by exact H. rewrite set_route_same. reflexivity.
Qed.
Print Assumptions C18_push_pop_router.

(* the same three operations on '/'-joined strings of character codes, for every naming of the
   segments by non-empty '/'-free strings: split("/")[0], routing_code + "/" + route_code and the
   slice [len(prefix)+1:] commute with rendering *)
Theorem C18_strings : forall name : seg -> str,
  (forall s, name s <> []) -> (forall s, ~ In slash (name s)) ->
  forall r, route_wf r = true ->
    option_map str_head (render name r) = option_map name (first_seg r)
    /\ (forall c, str_route_code (name c) (render name r) = render name (route_code c r))
    /\ str_consume (render name r) = render name (strip_first r)
    /\ (forall c, str_consume (str_route_code (name c) (render name r)) = render name r).
Proof.
  exact (fun name H1 H2 r H =>
           conj (str_first_seg name H2 r H)
             (conj (fun c => str_push name c r H)
                (conj (str_pop name H1 H2 r H) (fun c => str_push_pop name H1 H2 c r H)))).
Qed.
Print Assumptions C18_strings.

(* MODEL-LEVEL, for arbitrary rule sets (wf_base: also sinks registered several times): the start/stop calls
   sink s receives at call k are one startTestRun (stopTestRun) PER REGISTRATION of s made before k when the
   call is startTestRun (stopTestRun); one startTestRun when the call is an add_rule that registers s and a run
   is in progress; nothing in every other case.  The multiplicity for >= 2 registrations of one sink object is
   the current code's choice (one _sinks entry per registration), NOT the statement's: such rule sets are outside
   wf and the check does not judge them.  What this says for every rule set: no add_rule - re-mapping or not -
   ever stops a sink or takes a registration away. *)
Theorem C18_start_stop_count : forall i, wf_base i -> forall k o so s,
  nth_error (ops i) k = Some o -> nth_error (o_steps (model i)) k = Some so -> s < n_sinks i ->
  let past := firstn k (ops i) in
  filter is_start_stop (nth s (s_new so) []) =
    match o with
    | Start => repeat StartRun (count s (registered i past))
    | Stop => repeat StopRun (count s (registered i past))
    | AddPrefix s' _ _ ss | AddId s' _ ss => if Nat.eqb s' s && ss && in_run past then [StartRun] else []
    | Status _ _ => []
    | AddRej _ _ _ => []
    end.
Proof. exact start_stop_count. Qed.
Print Assumptions C18_start_stop_count.

(* "once per run", inside the quantifier (wf: every sink registered at most once; it may serve any number of
   rules, be the fallback as well, and its rules may be re-mapped): exactly one startTestRun (stopTestRun) at
   every startTestRun (stopTestRun) after the sink's registration, one startTestRun at once when it is registered
   during a run, nothing else - in particular a sink whose rule is re-mapped is not stopped and keeps its
   registration, and a sink is never stopped while a rule still routes to it except by the caller's stopTestRun. *)
Theorem C18_start_stop : forall i, wf i -> forall k o so s,
  nth_error (ops i) k = Some o -> nth_error (o_steps (model i)) k = Some so -> s < n_sinks i ->
  let past := firstn k (ops i) in
  filter is_start_stop (nth s (s_new so) []) =
    match o with
    | Start => if memb s (registered i past) then [StartRun] else []
    | Stop => if memb s (registered i past) then [StopRun] else []
    | AddPrefix s' _ _ ss | AddId s' _ ss => if Nat.eqb s' s && ss && in_run past then [StartRun] else []
    | Status _ _ => []
    | AddRej _ _ _ => []
    end.
Proof. exact start_stop. Qed.
Print Assumptions C18_start_stop.

(* the same over the whole history - "exactly once per run": a sink never registered receives no
   startTestRun/stopTestRun at all; the fallback of a router built with do_start_stop_run receives
   exactly the caller's starts and stops, in order; a sink registered by the k-th call receives
   startTestRun at once if a run is in progress and from then on exactly the caller's starts and
   stops, in order (so one start and one stop per run, including the stop of the run it joined) -
   whether or not its rule is re-mapped later and whatever other rules it serves *)
Theorem C18_start_stop_log : forall i, wf i -> forall s, s < n_sinks i ->
  let log := ss_log s (o_steps (model i)) in
  (count s (registered i (ops i)) = 0 -> log = [])
  /\ (fb i = Some s -> fb_ss i = true -> log = flat_map ss_of_op (ops i))
  /\ (forall k o, nth_error (ops i) k = Some o -> In s (registration o) ->
        log = (if in_run (firstn k (ops i)) then [StartRun] else []) ++ flat_map ss_of_op (skipn (S k) (ops i))).
Proof. exact start_stop_log. Qed.
Print Assumptions C18_start_stop_log.

(* wf = the base conditions + every sink registered at most once; wf_distinct (sinks of different rules and the
   fallback distinct, one rule per key) is a special case *)
Theorem C18_wf_once : forall i, wf i -> wf_base i /\ forall s, reg_once i s.
Proof. exact (fun i H => conj (wf_is_base i H) (wf_once i H)). Qed.
Print Assumptions C18_wf_once.
Theorem C18_distinct_once : forall i, wf_distinct i -> forall s, reg_once i s.
Proof. exact distinct_once. Qed.
Print Assumptions C18_distinct_once.

(* a rejected add_rule (ValueError / TypeError, whatever its sink, its do_start_stop_run and the point
   of the history) leaves no trace: the call raises, no sink receives anything, and every other call
   of the history - before and after it - is observed exactly as in the history without that call.
   With C18_start_stop_log (whose `registered` skips rejected calls): the sink of a rejected call is
   not started, never receives start/stop because of it, and a corrected retry registers it once. *)
Theorem C18_rejected : forall n f fs l1 l2 s w ss,
  let os := o_steps (model {| n_sinks := n; fb := f; fb_ss := fs; ops := l1 ++ l2 |}) in
  o_steps (model {| n_sinks := n; fb := f; fb_ss := fs; ops := l1 ++ AddRej s w ss :: l2 |})
  = firstn (length l1) os ++ {| s_raised := true; s_new := repeat [] n |} :: skipn (length l1) os
  /\ o_round (model {| n_sinks := n; fb := f; fb_ss := fs; ops := l1 ++ AddRej s w ss :: l2 |})
     = o_round (model {| n_sinks := n; fb := f; fb_ss := fs; ops := l1 ++ l2 |}).
Proof.
  intros n f fs l1 l2 s w ss.
  unfold model. simpl. split.
  - apply run_rejected.
  - rewrite !flat_map_app. reflexivity.
Qed.
Print Assumptions C18_rejected.

(* a registration lasts: registered at the call after the add_rule, and from then on *)
Theorem C18_registered : forall i j k s o,
  (nth_error (ops i) k = Some o -> In s (registration o) -> memb s (registered i (firstn (S k) (ops i))) = true)
  /\ (j <= k -> memb s (registered i (firstn j (ops i))) = true -> memb s (registered i (firstn k (ops i))) = true).
Proof. exact (fun i j k s o => conj (registered_at i k s o) (registered_mono i j k s)). Qed.
Print Assumptions C18_registered.

(* the correspondence compares observations exactly *)
Theorem C18_obs_eqb : forall a b, obs_eqb a b = true <-> a = b.
Proof.
  intros a b.
  destruct a, b. unfold obs_eqb; simpl.
  eqb_components ltac:(first [apply (list_eqb_spec _ step_obs_eqb_spec) | apply (list_eqb_spec _ route_eqb_spec)]).
Qed.
Print Assumptions C18_obs_eqb.

(* non-vacuity of the re-mapping / shared-sink clauses: sink 1 serves prefix 0 and test id 1 and is registered
   once; during a run prefix 0 is re-mapped to sink 2: sink 1 is NOT stopped, still gets the test-id events
   and the caller's stopTestRun and the next run's start/stop; prefix-0 events go to sink 2 only *)
Example C18_example_remap :
  let e := Ev (Some 1) (Some 4) None true None None false None (Some [0; 3]) None in
  let e' := Ev (Some 1) (Some 4) None true None None false None None None in
  let i := {| n_sinks := 3; fb := None; fb_ss := false;
              ops := [AddPrefix 1 0 false true; AddId 1 (Some 1) false; Start; Status [] e;
                      AddPrefix 2 0 true true; Status [] e; Status [] e'; Stop; Start; Stop] |} in
  wf i /\ reg_once i 1 /\ reg_once i 2 /\ ~ wf_distinct i
  /\ map s_new (o_steps (model i))
     = [ [[]; []; []]; [[]; []; []]; [[]; [StartRun]; []]; [[]; [St e]; []];
         [[]; []; [StartRun]]; [[]; []; [St (set_route e (Some [3]))]]; [[]; [St e']; []];
         [[]; [StopRun]; [StopRun]]; [[]; [StartRun]; [StartRun]]; [[]; [StopRun]; [StopRun]] ].
Proof.
  repeat split; try (vm_compute; reflexivity); try (vm_compute; lia).
Qed.

(* non-vacuity: a fallback registered for start/stop, an add_rule rejected during a run with
   do_start_stop_run and retried with the same sink (a consuming prefix rule, started once), a
   test-id rule without; an event pushed through StreamToQueue(2) and
   StreamToQueue(0) pops back; the string-level hypotheses are satisfiable *)
Example C18_example :
  let e := Ev (Some 1) (Some 4) None true None None false None (Some [3; 4]) None in
  let i := {| n_sinks := 3; fb := Some 0; fb_ss := true;
              ops := [Start; AddRej 1 4 true; AddPrefix 1 0 true true; AddId 2 (Some 1) false;
                      Status [2; 0] e; Status [] e; Stop] |} in
  wf i /\ wf_distinct i
  /\ o_steps (model i)
     = [ {| s_raised := false; s_new := [[StartRun]; []; []] |};
         {| s_raised := true; s_new := [[]; []; []] |};
         {| s_raised := false; s_new := [[]; [StartRun]; []] |};
         {| s_raised := false; s_new := [[]; []; []] |};
         {| s_raised := false; s_new := [[]; [St (set_route e (Some [2; 3; 4]))]; []] |};
         {| s_raised := false; s_new := [[]; []; [St e]] |};
         {| s_raised := false; s_new := [[StopRun]; [StopRun]; []] |} ]
  /\ o_round (model i) = [Some [3; 4]; Some [3; 4]]
  /\ (forall s, (fun s => [48 + s]) s <> []) /\ (forall s, ~ In slash ((fun s => [48 + s]) s)).
Proof.
  repeat split; try (vm_compute; reflexivity); try discriminate.
  intros s [H|[]]. unfold slash in H. lia.
Qed.

(* add_rule made by a sink from inside its own startTestRun while the run is being opened (the loop of
   StreamResultRouter.startTestRun walks the LIVE _sinks list, start_reentrant): the calls deliver nothing themselves
   and the startTestRun delivers exactly what a startTestRun issued after them delivers - every registered sink,
   old and new, started once.  This is the shape in which the correspondence observes such histories. *)
Theorem C18_reentrant_start : forall r k adds,
  r_in_run r = false -> k < length (r_sinks r) -> forallb is_add adds = true ->
  Forall (fun out => out = (false, [])) (run r adds)
  /\ start_reentrant r k adds = step (apply_adds r adds) Start.
Proof. exact reentrant_start_is_adds_then_start. Qed.
Print Assumptions C18_reentrant_start.

Theorem C18_reentrant_start_once : forall r k adds s,
  r_in_run r = false -> k < length (r_sinks r) -> forallb is_add adds = true ->
  count_occ Nat.eq_dec (map fst (snd (snd (start_reentrant r k adds)))) s
  = count_occ Nat.eq_dec (r_sinks (apply_adds r adds)) s.
Proof. exact reentrant_start_once. Qed.
Print Assumptions C18_reentrant_start_once.

(* non-vacuity: the fallback (sink 0, registered) installs two rules when it is started; sink 1 asks for start/stop *)
Example C18_reentrant_example :
  let r := init (Some 0) true in
  let adds := [AddPrefix 1 0 true true; AddId 2 (Some 0) false] in
  r_in_run r = false /\ 0 < length (r_sinks r) /\ forallb is_add adds = true
  /\ snd (snd (start_reentrant r 0 adds)) = [(0, StartRun); (1, StartRun)].
Proof. vm_compute. repeat split; auto. Qed.
