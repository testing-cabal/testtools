(* C20 - Deferred matchers classify fired/failed/unfired without firing anything (PARTIAL: Twisted's
   Deferred and its unhandled-error logging are a model, Model/Deferred.v, validated by correspondence).
   The statements; each proof is `exact <lemma>` or a few lines from the lemmas of Proof/C20.v.
   [good d] is the invariant of every Deferred state a history can reach (C20_reachable). *)
From TT Require Import Lib.Base Model.Deferred Model.DeferredMatchers Spec.C20 Corr.C20 Proof.C20.

(* The model meets the whole statement, for every history (any length, any order of match / fire / fail /
   addCallbacks / pause / unpause / chained Deferred firing / extract_result, any callbacks, any nesting of
   inner matchers) and every SynchronousDeferredRunTest stage.  No well-formedness side condition. *)
Theorem C20_holds : forall i : input, spec_okb i (model i) = true.
Proof.
  intros [ops|pos s]; simpl; [apply model_hist_okb|].
  unfold sync_okb, model_sync. simpl. rewrite sync_fired.
  replace (uret_eqb (direct_run_user s) (direct_run_user s)) with true
    by (symmetry; apply uret_eqb_spec; reflexivity).
  reflexivity.
Qed.
Print Assumptions C20_holds.

(* ... and the executable statement implies the readable one (Spec.C20.Spec). *)
Theorem C20_statement : forall i o, spec_okb i o = true -> Spec i o.
Proof. exact spec_okb_sound. Qed.
Print Assumptions C20_statement.

(* the correspondence compares observations exactly up to alpha, which forgets the two whole-test event lists
   of the SynchronousDeferredRunTest cases (keeping whether they are equal) and what a history shows after
   its first extract_result (Corr.C20.cut: the statement does not say what extract_result leaves behind) *)
Theorem C20_obs_eqb : forall a b, obs_eqb a b = true <-> alpha a = alpha b.
Proof.
  intros a b. destruct a as [x|x], b as [y|y]; simpl; try (split; intro H; discriminate).
  - rewrite hobs_eqb_spec. split; intro H; [rewrite H; reflexivity | injection H as H; exact H].
  - rewrite sobs_eqb_spec. split; intro H; [rewrite H; reflexivity | unfold sobs_alpha in *; congruence].
Qed.
Print Assumptions C20_obs_eqb.

(* every state reached by any history from a fresh Deferred satisfies the invariant the clauses assume *)
Theorem C20_reachable : forall ops, good (final_of ops new_deferred []).
Proof. intro ops. apply run_ops_good, good_new. Qed.
Print Assumptions C20_reachable.

(* classification: exactly one of has_no_result / succeeded(Always) / failed(Always) matches, the one the state names *)
Theorem C20_trichotomy : forall d lg, good d ->
  let n := verdict MNoResult d lg in
  let s := verdict (MSucceeded IAlways) d lg in
  let f := verdict (MFailed IAlways) d lg in
  match state_of d with
  | SUnfired | SWaiting => n = true /\ s = false /\ f = false
  | SVal _ => n = false /\ s = true /\ f = false
  | SErr _ => n = false /\ s = false /\ f = true
  end.
Proof. exact trichotomy. Qed.
Print Assumptions C20_trichotomy.

(* succeeded(m) / failed(m) match iff in addition m matches the value / the Failure *)
Theorem C20_inner : forall m d lg, good d ->
  (verdict MNoResult d lg = true <-> state_of d = SUnfired \/ state_of d = SWaiting)
  /\ (verdict (MSucceeded m) d lg = true <-> exists v, state_of d = SVal v /\ inner_match m v = true)
  /\ (verdict (MFailed m) d lg = true <-> exists e, state_of d = SErr e /\ inner_match m e = true).
Proof.
  intros m d lg G. rewrite !verdict_spec by exact G. destruct (state_of d) as [| |v|e]; simpl; repeat split;
    try (intro H; discriminate H); try (intros [H|H]; discriminate H);
    try (intros (x & H & _); discriminate H); auto.
  - intro H. exists v. auto.
  - intros (x & H & I). injection H as ->. exact I.
  - intro H. exists e. auto.
  - intros (x & H & I). injection H as ->. exact I.
Qed.
Print Assumptions C20_inner.

Theorem C20_extract : forall d lg, good d ->
  fst (fst (extract_result d lg)) = expect_extract (state_of d).
Proof. exact extract_clause. Qed.
Print Assumptions C20_extract.

(* nothing fired: no callback runs during a match, .called is unchanged, and the state is unchanged
   unless succeeded()/failed() looked at a failure *)
Theorem C20_nothing_fired : forall m d lg, good d ->
  log_after_match m d lg = lg
  /\ d_called (after_match m d lg) = d_called d
  /\ (inspects m (state_of d) = false -> state_of (after_match m d lg) = state_of d).
Proof. exact nothing_fired. Qed.
Print Assumptions C20_nothing_fired.

(* non-interference: after a match that did not consume a failure, every later operation (firing, adding
   callbacks, further matches, extract_result ...) observes and produces exactly what it would have
   without the match: same per-operation observations, same values seen by callbacks, same final
   state and unhandled-error flag *)
Theorem C20_passive : forall m d lg rest, good d -> inspects m (state_of d) = false ->
  obs_of rest (after_match m d lg) lg = obs_of rest d lg
  /\ log_of rest (after_match m d lg) lg = log_of rest d lg
  /\ state_of (final_of rest (after_match m d lg) lg) = state_of (final_of rest d lg)
  /\ d_called (final_of rest (after_match m d lg) lg) = d_called (final_of rest d lg)
  /\ unhandled (final_of rest (after_match m d lg) lg) = unhandled (final_of rest d lg).
Proof.
  intros m d lg rest G I. destruct (match_keeps_Rel m d lg G I) as [G1 R].
  exact (Rel_unobservable rest _ _ lg G1 R).
Qed.
Print Assumptions C20_passive.

(* ... and in general: a history shows its callbacks the same values and ends in the same state as the
   match-free history [erase] (matches deleted; an errback returning None where a failure was inspected) *)
Theorem C20_passive_history : forall ops d lg, good d ->
  (forall o, In o (erase ops d lg) -> forall m, o <> OMatch m)
  /\ log_of (erase ops d lg) d lg = log_of ops d lg
  /\ state_of (final_of (erase ops d lg) d lg) = state_of (final_of ops d lg)
  /\ d_called (final_of (erase ops d lg) d lg) = d_called (final_of ops d lg)
  /\ unhandled (final_of (erase ops d lg) d lg) = unhandled (final_of ops d lg).
Proof. exact passive. Qed.
Print Assumptions C20_passive_history.

(* a failure inspected by succeeded()/failed() is handled (not on record for the unhandled-error log);
   has_no_result() leaves it as it is *)
Theorem C20_handled : forall m d lg e, good d -> state_of d = SErr e ->
  match m with
  | MNoResult => state_of (after_match m d lg) = SErr e /\ unhandled (after_match m d lg) = unhandled d
  | _ => state_of (after_match m d lg) = SVal 0 /\ handled (after_match m d lg) = true
  end.
Proof.
  intros m d lg e G S. destruct (good_cases d G) as [I|[x ->]].
  - rewrite (state_idle d I) in S. destruct (d_called d); discriminate.
  - unfold after_match. rewrite match_deferred_ready. rewrite S. destruct x as [v|e']; [discriminate|].
    simpl in S. injection S as ->. destruct m; simpl; split; reflexivity.
Qed.
Print Assumptions C20_handled.

(* SynchronousDeferredRunTest._run_user on a function returning an already-fired Deferred (or returning /
   raising directly, through maybeDeferred) reports what plain RunTest._run_user reports *)
Theorem C20_sync_runner : forall s,
  sync_run_user (fired_stage s) = direct_run_user s
  /\ sync_run_user (match s with inl v => StReturn v | inr e => StRaise e end) = direct_run_user s.
Proof. exact sync_runner. Qed.
Print Assumptions C20_sync_runner.

(* ... for EVERY exception class, including the classes the helpers themselves raise: the runner raises
   DeferredNotFired exactly for a Deferred without a result; a fired Deferred whose failure IS a
   DeferredNotFired (or a stage raising it directly) is a caught user error like any other *)
Theorem C20_sync_notfired_only : forall st, stage_good st ->
  (forall x, sync_run_user st = URaised x -> x = XNotFired /\ exists d, st = StDeferred d /\ idle d)
  /\ (forall d, st = StDeferred d -> idle d -> sync_run_user st = URaised XNotFired)
  /\ (forall e, st = StRaise e \/ st = StDeferred (ready (RErr e)) -> sync_run_user st = UCaught e).
Proof. exact sync_notfired_only. Qed.
Print Assumptions C20_sync_notfired_only.

(* exception identity is not confused with state: a Deferred failed WITH DeferredNotFired is 'failed', not
   'no result'; extract_result raises that failure's exception (class DeferredNotFired) and the runner reports it
   as caught, while on an unfired Deferred the runner itself raises *)
Example C20_example_notfired :
  let d := ready (RErr notfired_tok) in
  verdict MNoResult d [] = false /\ verdict (MFailed (IIs notfired_tok)) d [] = true
  /\ fst (fst (extract_result d [])) = Raised XNotFired
  /\ fst (fst (extract_result new_deferred [])) = Raised XNotFired
  /\ sync_run_user (StDeferred d) = UCaught notfired_tok
  /\ sync_run_user (StRaise notfired_tok) = UCaught notfired_tok
  /\ sync_run_user (StDeferred (ready (RErr impossible_tok))) = UCaught impossible_tok
  /\ sync_run_user (StDeferred new_deferred) = URaised XNotFired
  /\ spec_okb (ISync 1 (inr notfired_tok)) (model (ISync 1 (inr notfired_tok))) = true.
Proof. vm_compute. repeat split. Qed.

(* the class of the failure plays no role (all clauses above quantify over every class token): a failure
   that is a KeyboardInterrupt / SystemExit / GeneratorExit / other non-Exception BaseException is classified,
   consumed and marked handled by succeeded()/failed() like any other, also when a callback raised it or it
   came through a chained Deferred; the runner reports it as caught, like RunTest._run_user *)
Example C20_example_baseexception :
  let d := ready (RErr kbint_tok) in
  verdict (MFailed (IIs kbint_tok)) d [] = true /\ verdict (MSucceeded IAlways) d [] = false
  /\ handled (after_match (MSucceeded IAlways) d []) = true
  /\ state_of (after_match (MFailed INever) (ready (RErr sysexit_tok)) []) = SVal 0
  /\ unhandled (after_match MNoResult (ready (RErr genexit_tok)) []) = true
  /\ sync_run_user (StRaise dbase_tok) = UCaught dbase_tok
  /\ sync_run_user (StDeferred (ready (RErr sysexit_tok))) = UCaught sysexit_tok
  /\ (match model (IHist [OAdd (CRaise kbint_tok) CPass; OAdd CWait CWait; OFire 3; OResume (RErr genexit_tok);
                          OMatch (MFailed (IIs genexit_tok))]) with
      | OHist h => h_unhandled h = false /\ final_state (h_ops h) = SVal 0
                   /\ map p_out (h_ops h) = [OutDone; OutDone; OutDone; OutDone; OutMatch true]
      | _ => False
      end).
Proof. vm_compute. repeat split. Qed.

(* non-vacuity: callbacks before, a match on the unfired Deferred, a chained Deferred, a failure inspected
   behind it, callbacks after; the recorders see the same with and without the matches; nothing unhandled *)
Example C20_example :
  let ops := [OAdd (CRec 1) (CRec 1); OMatch MNoResult; OAdd CWait CPass; OFire 3;
              OMatch (MSucceeded IAlways); OResume (RErr 2); OMatch (MFailed (INot (IIs 1)));
              OAdd (CRec 2) (CRec 2)] in
  match model (IHist ops) with
  | OHist h => map p_out (h_ops h) = [OutDone; OutMatch true; OutDone; OutDone; OutMatch false; OutDone;
                                      OutMatch true; OutDone]
               /\ h_log h = [(1, RVal 3); (2, RVal 0)] /\ h_elog h = h_log h /\ h_unhandled h = false
               /\ h_eops h = [OAdd (CRec 1) (CRec 1); OAdd CWait CPass; OFire 3; OResume (RErr 2);
                              OAdd CPass (CConst 0); OAdd (CRec 2) (CRec 2)]
               /\ spec_okb (IHist ops) (OHist h) = true
  | _ => False
  end.
Proof. vm_compute. repeat split. Qed.
