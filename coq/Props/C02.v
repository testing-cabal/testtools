(* C02 - stages run in order; every cleanup runs exactly once, LIFO, whatever failed; nothing is
   left; patched attributes are restored; a second run repeats the first.
   The statements; each proof is `exact <lemma>` or a few lines from the lemmas of Proof/C02.v
   and Proof/Run*.v. *)
From Coq Require Import Permutation.
From TT Require Import Lib.EqbFacts Lib.Base Gen.Handlers Model.Run Spec.Run Spec.C02 Corr.C02 Proof.RunCore Proof.RunExtra Proof.C02.

(* The model meets the whole statement for every finite program (any number of statements per
   body, cleanups registering cleanups to any depth, any exception values, fixtures, patches of
   attributes of an instance, of its class and of the class's base class - held by the target itself,
   inherited, missing, served by a property or a slot), every initial state of the namespaces of the
   patched objects, on both runs of the instance. *)
Theorem C02_holds : forall i : input, wf i = true -> spec_okb i (model i) = true.
Proof. intros i _. apply model_meets_spec. Qed.
Print Assumptions C02_holds.

(* The correspondence also runs programs on cases configured with a RunTest factory of their own (class
   attribute run_tests_with, the runTest= constructor argument, @run_test_with; RunTest subclasses and functions
   with explicit / star / keyword-only / ** signatures, functools.partial, callable objects, bound methods,
   factories written for the API before last_resort - Model.Run.factory).  The Gallina input leaves the
   configuration out: the run of such a case IS the run with the default RunTest. *)
Theorem C02_factory_irrelevant : forall r p s, run_from_runner r p s = run_from p s.
Proof. exact factory_irrelevant. Qed.
Print Assumptions C02_factory_irrelevant.

Theorem C02_statement : forall i o, spec_okb i o = true -> Spec i o.
Proof.
  intros i o. unfold spec_okb, Spec. intros H. apply andb_true_iff in H as [H H4]. apply andb_true_iff in H as [H H3].
  apply andb_true_iff in H as [H1 H2].
  assert (R : forall r, run_okb i r = true -> Run_spec i r).
  { intros r Hr. unfold run_okb in Hr. apply andb_true_iff in Hr as [Hr C]. apply andb_true_iff in Hr as [A B].
    split; [exact (proj1 (list_eqb_spec lsh_eqb lsh_eqb_spec _ _) A)|].
    split; [now apply Nat.eqb_eq in B | exact (same_attrs_sound _ _ C)]. }
  split; [exact (R _ H1)|]. split; [exact (R _ H2)|].
  split; [exact (proj1 (list_eqb_spec lsh_eqb lsh_eqb_spec _ _) H3)
         | exact (proj1 (list_eqb_spec outcome_eqb outcome_eqb_spec _ _) H4)].
Qed.
Print Assumptions C02_statement.

(* the correspondence compares logs, leftovers and the namespaces of the patched objects (as a mapping over
   the harness's keys) of both runs exactly, and of the
   outcomes whether the second run repeats the first (Corr.C02.alpha) *)
Theorem C02_obs_eqb : forall a b, obs_eqb a b = true <-> alpha a = alpha b.
Proof.
  intros a b. unfold obs_eqb, alpha. etransitivity.
  - apply andb_iff; [apply andb_iff|]; [apply runobs_eqb_spec | apply runobs_eqb_spec | apply eqb_true_iff].
  - split; [intros [[H1 H2] ->]; injection H1 as -> -> ->; injection H2 as -> -> ->; reflexivity
           | intros H; injection H; intros; repeat split; congruence].
Qed.
Print Assumptions C02_obs_eqb.

(* C02_order - for a run() of the instance in ANY state s0 (fresh or used): the log is setUp,
   then test and tearDown iff setUp returned, then the cleanup phase [cleanup_entries]
   (Spec/Run.v: DESIGN Appendix A.1); no cleanup is left (the fuel supplied suffices);
   vars(scratch) is what it was before *)
Theorem C02_order : forall p s0,
  exists r s, observe p s0 = (r, s) /\ r_left r = 0 /\ r_attrs r = attrs s0
              /\ map shape (r_log r) = expected_log p.
Proof.
  intros p s0. destruct (observe_spec p s0) as (r & s & O & L & K & A & _). exists r, s. repeat split; assumption.
Qed.
Print Assumptions C02_order.

(* C02_once: what the cleanup phase calls is, counted with multiplicity, exactly what the
   executed statements registered - functions, patch undo actions, fixture cleanUps and detail
   gatherings - whatever any body raised *)
Theorem C02_once : forall p, Permutation (cleanup_entries p) (registered p).
Proof. exact once. Qed.
Print Assumptions C02_once.

(* C02_lifo: the precise reading of "reverse registration order" under dynamic registration.
   (1) later registrations of one body run first, and nothing after a raising statement is
   registered; (2) what a cleanup registers while it runs comes right after it, before every
   cleanup still pending; (3) of two registrations in one body the later runs first, each followed
   at once by its own registrations; (4) the literal pop-run-repeat machine realises exactly this
   order on any stack, given fuel for the size of the stack: log, exceptions caught, nothing left,
   and the patched attributes are what the pending undo actions make of them. *)
Theorem C02_lifo :
  (forall l1 l2, acts_raise l1 = None -> pending (l1 ++ l2) = pending l2 ++ pending l1)
  /\ (forall l1 x l2 e, acts_raise l1 = None -> act_raise x = Some e -> pending (l1 ++ x :: l2) = pending l1)
  /\ (forall t b, act_entries (ACleanup t b) = EUser t b :: pending b)
  /\ (forall l1 a1 l2 a2 l3, acts_raise (l1 ++ a1 :: l2 ++ [a2]) = None ->
        pending (l1 ++ a1 :: l2 ++ a2 :: l3) = pending l3 ++ act_entries a2 ++ pending l2 ++ act_entries a1 ++ pending l1)
  /\ (forall fuel s, stack_size (stack s) <= fuel ->
        exists s' failing, run_cleanups fuel s = (s', failing, false)
          /\ map shape (log s') = map shape (log s) ++ flat_map entry_log (entries_of (stack s))
          /\ excs s' = excs s ++ flat_map (fun e => caught (entry_raise e)) (entries_of (stack s))
          /\ stack s' = [] /\ attrs s' = undo_all (stack s) (attrs s)).
Proof.
  split; [exact pending_app|]. split; [|split; [exact act_entries_cleanup|split]].
  - intros l1 x l2 e H1 H2. rewrite (pending_app _ _ H1). simpl. now rewrite H2.
  - intros l1 a1 l2 a2 l3 H.
    replace (l1 ++ a1 :: l2 ++ a2 :: l3) with ((l1 ++ a1 :: l2) ++ a2 :: l3) by (rewrite <- app_assoc; reflexivity).
    rewrite pending_mid by (rewrite <- app_assoc; exact H).
    rewrite pending_mid; [reflexivity|].
    rewrite acts_raise_app in H |- *. destruct (acts_raise l1); [discriminate|]. cbn [acts_raise] in *.
    destruct (act_raise a1); [discriminate | reflexivity].
  - intros fuel s H.
    destruct (run_cleanups_spec fuel s (Nat.le_trans _ _ _ (entries_of_length _) H)) as (s' & R & [L X _ _ _ _] & K & A).
    exists s'. eexists. repeat split; eassumption.
Qed.
Print Assumptions C02_lifo.

(* C02_stack_empty: after run() on an instance in any state, _cleanups is empty *)
Theorem C02_stack_empty : forall p s0, stack (snd (observe p s0)) = [] /\ r_left (fst (observe p s0)) = 0.
Proof. exact stack_empty. Qed.
Print Assumptions C02_stack_empty.

(* C02_patch_restored: every attribute in the namespace of every patched object (instance, class, base
   class; property and slot attributes) has its value from before the run, or is absent again (attributes
   are changed only through patch()) *)
Theorem C02_patch_restored : forall p s0 k, aget k (r_attrs (fst (observe p s0))) = aget k (attrs s0).
Proof. exact patch_restored. Qed.
Print Assumptions C02_patch_restored.

(* ... so that no target is left with a shadow of a value it only inherited (the repair of F25: patching
   Base.x and then Sub.x leaves Sub without an x of its own again), and getattr(obj, name) finds for every
   target what it found before the run *)
Theorem C02_namespaces_restored : forall p s0,
  attrs (snd (observe p s0)) = attrs s0
  /\ forall k, getattr k (attrs (snd (observe p s0))) = getattr k (attrs s0).
Proof. exact namespaces_restored. Qed.
Print Assumptions C02_namespaces_restored.

(* C02_rerun: the second run() of the same instance repeats the sequence and the outcome
   (force_failure and inserted exception handlers are not reset by _reset, but what set them in
   the first run sets them again) *)
Theorem C02_rerun : forall i,
  let o := model i in
  map shape (r_log (o_second o)) = map shape (r_log (o_first o))
  /\ r_outs (o_second o) = r_outs (o_first o)
  /\ r_attrs (o_second o) = i_attrs i /\ r_attrs (o_first o) = i_attrs i.
Proof. exact rerun. Qed.
Print Assumptions C02_rerun.

(* non-vacuity: nested registration, nested patches of one attribute (existing and missing), a
   KeyboardInterrupt in the test, a failing fixture cleanup *)
Example C02_example :
  let fx := {| fx_tok := 20; fx_old := false; fx_details := []; fx_cleanups := [(21, None); (22, Some (Exc CValueError None))];
               fx_fail := None; fx_bad := None |} in
  let p := {| p_skip := None; p_xfail := false;
              p_setup := (1, [APatch 0 5; ACleanup 10 [APatch 0 6; ACleanup 11 [APatch 3 7]]; AFixture fx]);
              p_up_setup := true;
              p_body := (2, [ACleanup 12 []; ARaise (Exc CKbd None); ACleanup 13 []]);
              p_teardown := (3, [APatch 0 8]); p_up_teardown := true; p_handlers := [] |} in
  wf {| i_prog := p; i_attrs := [(0, 1)] |} = true
  /\ r_log (o_first (model {| i_prog := p; i_attrs := [(0, 1)] |}))
  = [LTok 1; LSet 0 5; LTok 20; LTok 2; LTok 3; LSet 0 8; LSet 0 5; LTok 12; LTok 22; LTok 21; LTok 10; LSet 0 6;
     LTok 11; LSet 3 7; LDel 3; LSet 0 5; LSet 0 1]
  /\ r_attrs (o_second (model {| i_prog := p; i_attrs := [(0, 1)] |})) = [(0, 1)]
  /\ r_outs (o_first (model {| i_prog := p; i_attrs := [(0, 1)] |})) = [OErr]
  /\ registered p = [ERestore 0; EUser 10 [APatch 0 6; ACleanup 11 [APatch 3 7]]; ERestore 0; EUser 11 [APatch 3 7];
                     ERestore 3; EFx fx; EGather fx; EUser 12 []; ERestore 0].
Proof. vm_compute. repeat split. Qed.

(* non-vacuity for fixtures with a detail that cannot be evaluated when it is gathered: the gathering
   cleanup raises (error outcome), the fixture's cleanUp and the patch undo still run, once *)
Example C02_example_unevaluable_detail :
  let fx := {| fx_tok := 20; fx_old := false; fx_details := [((5, []), 1); ((4, []), 2)]; fx_cleanups := [(21, None)];
               fx_fail := None; fx_bad := Some (0, Exc CValueError None) |} in
  let p := {| p_skip := None; p_xfail := false; p_setup := (1, []); p_up_setup := true;
              p_body := (2, [APatch 0 5; AFixture fx]); p_teardown := (3, []); p_up_teardown := true; p_handlers := [] |} in
  r_log (o_first (model {| i_prog := p; i_attrs := [] |})) = [LTok 1; LTok 2; LSet 0 5; LTok 20; LTok 3; LTok 21; LDel 0]
  /\ r_outs (o_first (model {| i_prog := p; i_attrs := [] |})) = [OErr]
  /\ cleanup_entries p = [EGather fx; EFx fx; ERestore 0].
Proof. vm_compute. repeat split. Qed.

(* non-vacuity for the kinds of patch targets: a property-backed attribute (key 30), an unset inherited slot
   (key 33), a missing class attribute (key 7); the base class's attribute 0 (key 2) and then the class's
   (key 1, inherited: the old F25 input) - the class is left without an attribute of its own; an attribute
   the instance inherits from its class (key 3 over key 4): the shadow is deleted again *)
Example C02_example_targets :
  let p := {| p_skip := None; p_xfail := false; p_setup := (1, [APatch 30 5; APatch 33 6]); p_up_setup := true;
              p_body := (2, [APatch 7 2; APatch 2 5; APatch 1 6; APatch 3 4; ARaise (Exc CKbd None)]);
              p_teardown := (3, []); p_up_teardown := true; p_handlers := [] |} in
  let i := {| i_prog := p; i_attrs := [(30, 1); (4, 2); (2, 1)] |} in
  wf i = true
  /\ r_log (o_first (model i)) = [LTok 1; LSet 30 5; LSet 33 6; LTok 2; LSet 7 2; LSet 2 5; LSet 1 6; LSet 3 4; LTok 3;
                                   LDel 3; LDel 1; LSet 2 1; LDel 7; LDel 33; LSet 30 1]
  /\ r_attrs (o_second (model i)) = [(30, 1); (4, 2); (2, 1)]
  /\ map (fun k => getattr k (r_attrs (o_first (model i)))) [0; 1; 2; 3] = [Some 1; Some 1; Some 1; Some 2].
Proof. vm_compute. repeat split. Qed.
