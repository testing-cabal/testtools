(* C09 - TestResult -> StreamResult -> TestResult conversion preserves every test.
   The statements; each proof is `exact <lemma>` or a few lines from the lemmas of Proof/C09.v.
   mid_stream / final_log are the model (Model/StreamConv.v over Model/StreamRec.v and Model/Mime.v):
   the events ExtendedToStreamDecorator sends on, and the log of the extended result behind
   StreamToExtendedDecorator.  expected / match_mid / match_fin / group / norm_log / wf are the
   specification (Spec/C09.v): what an independent reading of the history says must be seen. *)
From Coq Require Import String.
From TT Require Import Lib.ListFacts Lib.EqbFacts.
From TT Require Import Lib.Base Lib.Sort Lib.Bytestr Gen.Streamtabs Model.Mime Model.StreamRec Model.StreamConv.
From TT Require Import Spec.C09 Corr.C09 Proof.C09.
Open Scope list_scope.

(* The model meets the whole statement for every well-formed history. *)
Theorem C09_holds : forall i : input, wf i = true -> spec_okb i (model i) = true.
Proof.
  intros i W. unfold spec_okb. rewrite W. unfold alpha, model. cbn [o_mid o_fin a_mid a_fin].
  destruct (history_ok0 (hist i) W) as [-> ->]. reflexivity.
Qed.
Print Assumptions C09_holds.

(* ... and the executable statement implies the readable one (Spec.C09.Spec). *)
Theorem C09_statement : forall i o, spec_okb i o = true -> Spec i o.
Proof.
  intros i o H W. unfold spec_okb in H. rewrite W in H. apply andb_true_iff in H as [H1 H2].
  split; apply (forall2b_sound _ _ (fun _ _ H => H)); assumption.
Qed.
Print Assumptions C09_statement.

(* the correspondence compares observations up to alpha: file events collapsed per detail (joined bytes,
   parsed content type, eof on the last event only), tags() calls on the final result dropped, content
   type parameters sorted by name *)
Theorem C09_obs_eqb : forall a b, obs_eqb a b = true <-> alpha a = alpha b.
Proof.
  intros a b.
  unfold obs_eqb, aobs_eqb. destruct (alpha a), (alpha b); simpl.
  eqb_components ltac:(first [apply (list_eqb_spec _ aev_eqb_spec) | apply (list_eqb_spec _ clog_eqb_spec)]).
Qed.
Print Assumptions C09_obs_eqb.

(* The stream in between is well formed: per test 'inprogress' at startTest (with the time current then),
   then for each detail in dict order one closed group of file events carrying its joined bytes and content
   type - eof on the last event of the group and on no other, a group of one empty eof event when the
   content yields nothing -, the reason file if any, then exactly one final status with the current tags. *)
Theorem C09_stream_wf : forall h, wf_from PNot h = true ->
  Forall2 (fun x a => match_mid x a = true) (fst (expected ss0 h)) (group (mid_stream h)).
Proof. exact stream_wf. Qed.
Print Assumptions C09_stream_wf.

(* Feeding those events to StreamToExtendedDecorator yields for each test one bracket
   time(start) startTest time(outcome) outcome stopTest with the same id, the same outcome (error as
   failure), the tags current at the outcome, the supplied times (0 = none supplied: a wall-clock value; a
   time supplied before a startTest that starts the run itself counts, one before an explicit startTestRun
   does not: startTestRun resets it),
   and as details exactly the details with non-empty bytes (same joined bytes, equal content type) plus
   the non-empty skip reason; startTestRun / stopTestRun pass through. *)
Theorem C09_roundtrip : forall h, wf_from PNot h = true ->
  Forall2 (fun y l => match_fin y l = true) (snd (expected ss0 h)) (norm_log (final_log h)).
Proof. exact roundtrip. Qed.
Print Assumptions C09_roundtrip.

(* the look-ahead loop of _convert: every chunk in order with eof=False except the last, which has
   eof=True; a single empty eof chunk when there is none *)
Theorem C09_chunks : forall (emit : string -> bool -> mev) (cs : list string),
  (let (pending, out) := chunk_loop emit None cs [] in
   out ++ [emit (match pending with Some p => p | None => ""%string end) true])
  = map (fun c => emit c false) (fst (split_last cs)) ++ [emit (snd (split_last cs)) true].
Proof. exact chunk_loop_spec. Qed.
Print Assumptions C09_chunks.

(* repr(ContentType) parsed back by _make_content_type is the same content type (parameters in rendered
   order, equal as a dict), for content types in the validated domain wf_ct *)
Theorem C09_mime_roundtrip : forall ct, wf_ct ct = true ->
  parse (render ct) = CType (ct_type ct) (ct_sub ct) (isort item_leb (ct_params ct))
  /\ ct_same (parse (render ct)) ct = true /\ ct_same (norm_ct (parse (render ct))) ct = true.
Proof. exact (fun ct H => conj (mime_roundtrip ct H) (mime_roundtrip_same ct H)). Qed.
Print Assumptions C09_mime_roundtrip.

(* the live tables: each add* sends the status word the statement names (error and failure both 'fail'),
   that word is final, and _status_map replays it as the same outcome with error turned into failure *)
Theorem C09_tables :
  (forall k, word_of k = final_word k)
  /\ (forall k, final (Some (final_word k)) = true)
  /\ (forall k, outcome_of (final_word k) = Some (replayed k))
  /\ final None = false /\ final (Some Inprogress) = false.
Proof. exact (conj word_table (conj final_word_final (conj outcome_of_final_word (conj final_none final_inprogress)))). Qed.
Print Assumptions C09_tables.

(* time() before the run is started (wf accepts it): any number of time() calls, the last being time(t),
   then a startTest that starts the run itself - the 'inprogress' event carries t, and the statement demands t;
   time() calls, then an explicit startTestRun - startTestRun resets the supplied time: the wall clock (0) *)
Theorem C09_time_before_start : forall ts t i h,
  (exists rest, mid_stream (map OTime ts ++ OTime t :: OStartTest i :: h)
                = MStartRun :: status_ev i Inprogress None (Some t) :: rest)
  /\ (exists xs, fst (expected ss0 (map OTime ts ++ OTime t :: OStartTest i :: h))
                 = XStartRun :: XStatus i Inprogress None t :: xs)
  /\ (exists rest, mid_stream (map OTime ts ++ OStartRun :: OStartTest i :: h)
                   = MStartRun :: status_ev i Inprogress None (Some wall) :: rest)
  /\ (exists xs, fst (expected ss0 (map OTime ts ++ OStartRun :: OStartTest i :: h))
                 = XStartRun :: XStatus i Inprogress None wall :: xs).
Proof. exact time_before_start. Qed.
Print Assumptions C09_time_before_start.

(* non-vacuity of it: two time() calls, the implicit start, a later time() for the outcome; the replayed
   bracket has time(9) startTest time(11) outcome; with an explicit startTestRun in between, time(0) startTest *)
Example C09_example_time :
  let h := [OTime 7; OTime 9; OStartTest 1; OTime 11; OOutcome AddSuccess 1 None None; OStopTest 1; OStopRun] in
  let h' := [OTime 7; OStartRun; OStartTest 1; OOutcome AddSuccess 1 None None; OStopTest 1] in
  wf_from PNot h = true /\ wf_from PNot h' = true
  /\ norm_log (final_log h)
     = [LStartRun; LTime 9; LStartTest 1; LTime 11; LOutcome AddSuccess 1 [] []; LStopTest 1; LStopRun]
  /\ norm_log (final_log h')
     = [LStartRun; LTime 0; LStartTest 1; LTime 0; LOutcome AddSuccess 1 [] []; LStopTest 1]
  /\ spec_okb {| hist := h |} (model {| hist := h |}) = true
  (* the behaviour before the repair (wall clock on every event) is rejected by the statement *)
  /\ spec_okb {| hist := h |} (model {| hist := OStartRun :: tl (tl h) |}) = false.
Proof. vm_compute. repeat split. Qed.

(* tags() before the run is started (wf accepts it): any tags() calls, then a startTest that starts the run
   itself - they are run-level tags: the test's final status carries what those calls leave (tags_after: through
   the converter's TagContext; tags_wanted: added then removed, call by call, read off the history; the same
   set), and the statement demands it; tags() calls, then an explicit startTestRun - reset: no tags *)
Theorem C09_tags_before_start : forall chs i h,
  (exists rest, mid_stream (tags_ops chs ++ OStartTest i :: OOutcome AddSuccess i None None :: h)
                = MStartRun :: status_ev i Inprogress None (Some wall)
                  :: status_ev i Success (Some (tags_after chs [])) (Some wall) :: rest)
  /\ (exists xs, fst (expected ss0 (tags_ops chs ++ OStartTest i :: OOutcome AddSuccess i None None :: h))
                 = XStartRun :: XStatus i Inprogress None wall
                   :: XStatus i Success (Some (tags_wanted chs [])) wall :: xs)
  /\ (forall x, In x (tags_after chs []) <-> In x (tags_wanted chs []))
  /\ (exists rest, mid_stream (tags_ops chs ++ OStartRun :: OStartTest i :: OOutcome AddSuccess i None None :: h)
                   = MStartRun :: status_ev i Inprogress None (Some wall)
                     :: status_ev i Success (Some []) (Some wall) :: rest)
  /\ (exists xs, fst (expected ss0 (tags_ops chs ++ OStartRun :: OStartTest i :: OOutcome AddSuccess i None None :: h))
                 = XStartRun :: XStatus i Inprogress None wall :: XStatus i Success (Some []) wall :: xs).
Proof. exact tags_before_start. Qed.
Print Assumptions C09_tags_before_start.

(* non-vacuity of it: tags 1,2 added, 3 added and 1 removed before the implicit start; a test-local change in
   the first test; the second test sees the run-level tags again; with an explicit startTestRun they are gone *)
Example C09_example_tags :
  let h := [OTags [1; 2] []; OTime 5; OTags [3] [1]; OStartTest 1; OTags [4] [2]; OOutcome AddSuccess 1 None None;
            OStopTest 1; OStartTest 2; OOutcome AddSuccess 2 None None; OStopTest 2; OStopRun] in
  let h' := [OTags [1] []; OStartRun; OStartTest 1; OOutcome AddSuccess 1 None None; OStopTest 1] in
  wf_from PNot h = true /\ wf_from PNot h' = true
  /\ norm_log (final_log h)
     = [LStartRun; LTime 5; LStartTest 1; LTime 5; LOutcome AddSuccess 1 [3; 4] []; LStopTest 1;
        LTime 5; LStartTest 2; LTime 5; LOutcome AddSuccess 2 [2; 3] []; LStopTest 2; LStopRun]
  /\ norm_log (final_log h')
     = [LStartRun; LTime 0; LStartTest 1; LTime 0; LOutcome AddSuccess 1 [] []; LStopTest 1]
  /\ spec_okb {| hist := h |} (model {| hist := h |}) = true
  (* losing the tags at the implicit start is rejected by the statement *)
  /\ spec_okb {| hist := h |} (model {| hist := OStartRun :: OTime 5 :: skipn 3 h |}) = false.
Proof. vm_compute. repeat split. Qed.

(* non-vacuity: run-level and test-level tags, a supplied time, a failure with a two-chunk text detail, an
   empty detail and a parameterised binary one, then a skip with a reason *)
Example C09_example :
  let h := [OStartRun; OTags [1] []; OTime 3; OStartTest 7; OTags [2] [1]; OTime 5;
            OOutcome AddError 7 (Some [Detail 2 (CType "text" "plain" [("charset", "utf8")]%string) ["ab"; ""; "c"]%string;
                                       Detail 3 (CType "image" "png" []) [];
                                       Detail 4 (CType "application" "x-t" [("b", "2"); ("a", "x; y")]%string) ["z"%string]])
                     None;
            OStopTest 7; OStartTest 8; OOutcome AddSkip 8 None (Some "why"%string); OStopTest 8; OStopRun] in
  wf_from PNot h = true
  /\ List.length (mid_stream h) = 12
  /\ norm_log (final_log h)
     = [LStartRun; LTime 3; LStartTest 7; LTime 5;
        LOutcome AddFailure 7 [2]
          [(2, (CType "text" "plain" [("charset", "utf8")]%string, "abc"%string));
           (4, (CType "application" "x-t" [("a", "x; y"); ("b", "2")]%string, "z"%string))];
        LStopTest 7; LTime 5; LStartTest 8; LTime 5;
        LOutcome AddSkip 8 [1] [(0, (CType "text" "plain" [("charset", "utf8")]%string, "why"%string))];
        LStopTest 8; LStopRun].
Proof. vm_compute. repeat split. Qed.
