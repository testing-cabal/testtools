(* C08 - result adapters deliver each call once, at the richest protocol the target has.
   The statements; each proof is `exact <lemma>` or a few lines from the lemmas of Proof/C08.v.

   input  = an adapter stack (tree of ExtendedToOriginalDecorator / MultiTestResult / TestResultDecorator /
            Tagger over targets given by ANY capability set, and TestByTestResult, each with the set of tests its
            on_test callback raises for) and a history of calls;
   model  = Model/Adapters.v run on it: the log of every innermost result, the on_test callbacks, the
            calls that raised;
   wf     = the stack is well-formed (a TestResultDecorator/Tagger decorates something that speaks the
            extended protocol), the history is bracketed, detail names (arbitrary strings) are distinct, an on_test
            raises only where no result comes after its TestByTestResult (Spec.C08.wfb). *)
From TT Require Import Lib.ListFacts Lib.EqbFacts.
From TT Require Import Lib.Base Model.Adapters Spec.C08 Corr.C08 Proof.C08.

(* The model meets the whole statement, for every stack, every capability set, every history and whatever
   tests the on_test callbacks raise for (wf: no result is dispatched to after a TestByTestResult whose on_test
   raises - a wrapped result that raises in front of others is outside the statement). *)
Theorem C08_holds : forall i : input, wf i -> spec_okb i (model i) = true.
Proof. exact model_meets_spec. Qed.
Print Assumptions C08_holds.

(* ... and the executable statement (the oracle applied to the implementation's observations)
   implies the readable one, Spec.C08.Spec. *)
Theorem C08_statement : forall i o, spec_okb i o = true -> Spec i o.
Proof. exact spec_okb_sound. Qed.
Print Assumptions C08_statement.

(* The correspondence compares observations up to the wording of synthetic texts and skip reasons
   (Corr.C08.alpha), and exactly otherwise. *)
Theorem C08_obs_eqb : forall a b, obs_eqb a b = true <-> alpha a = alpha b.
Proof.
  intros a b.
  unfold obs_eqb. apply raw_eqb_spec.
Qed.
Print Assumptions C08_obs_eqb.

(* One observation per innermost result, a log for a logging result and callbacks for a TestByTestResult. *)
Theorem C08_leaves : forall i, wf i ->
  Forall2 (fun lt lo => match fst lt, lo with LfTarget _, OLog _ | LfByTest _, OCbs _ => True | _, _ => False end)
          (spec_leaves (stack i)) (o_leaves (model i)).
Proof. exact (fun i H => spec_leaves_shape i (model i) (model_spec i H)). Qed.
Print Assumptions C08_leaves.

(* Every startTest, outcome and stopTest of the history arrives at every innermost result exactly once
   and in order: the log's projection to these calls (slot and test) is the history's. *)
Theorem C08_once_in_order : forall i, wf i -> forall k c tg,
  nth_error (spec_leaves (stack i)) k = Some (LfTarget c, tg) ->
  exists l, nth_error (o_leaves (model i)) k = Some (OLog l)
            /\ map shape (bracket l) = map shape (bracket (hist i)).
Proof. exact (fun i H k c tg => once_in_order i (model i) k c tg (model_spec i H)). Qed.
Print Assumptions C08_once_in_order.

(* What arrives is what the degradation table (Spec.C08.Delivered) names for the capabilities of that
   result: skip / expected failure -> success without addSkip / addExpectedFailure, unexpected success ->
   failure, details -> _StringException whose text contains every non-blank text detail, skip reason =
   details['reason'] text. *)
Theorem C08_degradation : forall i, wf i -> forall k c tg,
  nth_error (spec_leaves (stack i)) k = Some (LfTarget c, tg) ->
  exists l, nth_error (o_leaves (model i)) k = Some (OLog l)
            /\ Forall2 (Delivered c) (bracket (hist i)) (bracket l).
Proof. exact (fun i H k c tg => spec_target i (model i) k c tg (model_spec i H)). Qed.
Print Assumptions C08_degradation.

(* The substring lemma on the model of _details_to_str - for ANY distinct names (strings), in particular names
   that extend the special name ('traceback-1', 'tracebackx') - and the reason taken from details['reason']. *)
Theorem C08_details_text : forall d special, NoDup (map fst d) -> ContainsAll d (details_to_str d special).
Proof. exact details_text. Qed.
Print Assumptions C08_details_text.

Theorem C08_skip_reason : forall d r, lookup n_reason d = Some (DText r) -> skip_reason d = r.
Proof.
  intros d r.
  unfold skip_reason. intros ->. reflexivity.
Qed.
Print Assumptions C08_skip_reason.

(* Error, failure and unexpected success arrive as error, failure or unexpected success. *)
Theorem C08_no_pass_from_fail : forall i, wf i -> forall k c tg,
  nth_error (spec_leaves (stack i)) k = Some (LfTarget c, tg) ->
  exists l, nth_error (o_leaves (model i)) k = Some (OLog l)
            /\ Forall2 (fun hc lc => is_fail hc = true -> is_fail lc = true) (bracket (hist i)) (bracket l).
Proof. exact (fun i H k c tg => no_pass_from_fail i (model i) k c tg (model_spec i H)). Qed.
Print Assumptions C08_no_pass_from_fail.

(* TestByTestResult: one callback per test, in order, with the times in force at startTest / stopTest,
   the tags current before the pop (two-level reading, the Taggers' changes first), the details and the
   documented status word (Spec.C08.expected_cbs) - whatever tests its on_test raises for (bad): a report that
   failed does not disturb the following ones, each still carries its own times, tags and details. *)
Theorem C08_bytest : forall i, wf i -> forall k bad tg,
  nth_error (spec_leaves (stack i)) k = Some (LfByTest bad, tg) ->
  exists cbs, nth_error (o_leaves (model i)) k = Some (OCbs cbs)
              /\ Forall2 CbSpec (expected_cbs tg sst_init (hist i)) cbs
              /\ map cb_test cbs = stop_tests (hist i)
              /\ stop_tests (hist i) = start_tests (hist i).
Proof. exact (fun i H k bad tg => bytest_clause i (model i) k bad tg H (model_spec i H)). Qed.
Print Assumptions C08_bytest.

(* Table obligation: the status words probed from the live TestByTestResult (Gen/Bytest.v) are the
   documented ones. *)
Theorem C08_bytest_words :
  (forall k t a, Some (bt_word_err k) = word_of (AddErr k t a))
  /\ (forall t a, Some Gen.Bytest.bt_word_addSkip = word_of (AddSkip t a))
  /\ (forall k t d, Some (bt_word_ok k) = word_of (AddOk k t d)).
Proof. exact bt_words_documented. Qed.
Print Assumptions C08_bytest_words.

(* What comes out of the calls of a history: AttributeError from done() / progress(), and from the stopTest of a
   test what the on_test of some TestByTestResult raises for that test; nothing else. *)
Theorem C08_raised : forall i, wf i ->
  RaisedSpec (map fst (spec_leaves (stack i))) (hist i) (o_raised (model i)).
Proof. exact (fun i H => proj1 (model_spec i H)). Qed.
Print Assumptions C08_raised.

(* Of themselves only done() / progress() can raise, and only AttributeError. *)
Theorem C08_raises : forall a c e, raises a c = Some e ->
  e = AttributeError /\ (c = Done \/ exists o w, c = Progress o w).
Proof. exact raises_only. Qed.
Print Assumptions C08_raises.

(* ... and a call that raises reaches no log and no TestByTestResult (Proof.C08.silent), which is why the
   model may push the whole history through every path. *)
Theorem C08_raise_delivers_nothing : forall a c e, raises a c = Some e ->
  forall p, In p (paths a) -> silent (snd p) (through (fst p) (snd p) [c]).
Proof. exact raising_call_delivers_nothing. Qed.
Print Assumptions C08_raise_delivers_nothing.

(* non-vacuity: a MultiTestResult over a 2.6-style result and a tagged TestByTestResult whose on_test raises
   for test 1; an unexpected success of a PlaceHolder with details, a skip with a 'reason' detail *)
Example C08_example :
  let d := [(n_reason, DText [97; 32]); ([97], DText [32; 98; 32])] in
  let i := {| stack := Multi [Target py26; Tagger [1] [] (ByTest [1])];
              hist := [StartTestRun; Tags [2] []; Time 3; StartTest (th 1); AddOk KUxSuccess (th 1) (Some d);
                       Time 5; StopTest (th 1); StartTest (tc 0); AddSkip (tc 0) (inr d); StopTest (tc 0);
                       Progress 1 1; Done] |} in
  wf i
  /\ model i =
     {| o_leaves :=
          [OLog [StartTest (th 1); AddErr KFailure (th 1) (inl Fresh); StopTest (th 1);
                 StartTest (tc 0); AddOk KSuccess (tc 0) None; StopTest (tc 0)];
           OCbs [{| cb_test := th 1; cb_status := Some w_success; cb_start := Some 3; cb_stop := Some 5;
                    cb_tags := [1; 2]; cb_details := Some d |};
                 {| cb_test := tc 0; cb_status := Some w_skip; cb_start := Some 5; cb_stop := Some 5;
                    cb_tags := [1; 2]; cb_details := Some d |}]];
        o_raised := [(6, CallbackError); (10, AttributeError)] |}
  /\ substringb [98] (details_to_str d (Some n_traceback)) = true.
Proof. vm_compute. repeat split. Qed.

(* a failed test whose cleanup failed too ('traceback' and 'traceback-1'), and a look-alike name, towards a
   2.7-style result: "traceback-1: {{{b}}}\ntracebackx: {{{c}}}\n\na\n" - the special one last, the others sorted *)
Example C08_example_tracebacks :
  let d := [(n_traceback ++ [45; 49], DText [98]); (n_traceback ++ [120], DText [99]); (n_traceback, DText [97])] in
  details_okb d = true
  /\ details_to_str d (Some n_traceback)
     = n_traceback ++ [45; 49] ++ t_open ++ [98] ++ t_close ++ [10]
       ++ n_traceback ++ [120] ++ t_open ++ [99] ++ t_close ++ [10; 10; 97; 10]
  /\ e2o_conv py27 (AddErr KError (tc 0) (inr d))
     = [AddErr KError (tc 0) (inl (Str (details_to_str d (Some n_traceback))))].
Proof. vm_compute. repeat split. Qed.

(* Outside wf, for the record (what the model, faithful to the code, shows): MultiTestResult._dispatch stops at
   the member that raised - with a TestByTestResult whose on_test raises for test 0 in FRONT of a 2.6-style result,
   that result never gets stopTest(test 0). *)
Example C08_example_fault_reaches_sibling :
  let i := {| stack := Multi [ByTest [0]; Target py26];
              hist := [StartTest (tc 0); AddOk KSuccess (tc 0) None; StopTest (tc 0)] |} in
  fault_reaches_sibling i = true /\ wfb i = false
  /\ o_leaves (model i) =
     [OCbs [{| cb_test := tc 0; cb_status := Some w_success; cb_start := None; cb_stop := None;
               cb_tags := []; cb_details := None |}];
      OLog [StartTest (tc 0); AddOk KSuccess (tc 0) None]]
  /\ o_raised (model i) = [(2, CallbackError)].
Proof. vm_compute. repeat split. Qed.
