(* C07 - mismatches are always describable; text_repr output evaluates back; assertThat /
   assert_that / expectThat report faithfully (PARTIAL: describability is sampled, see C07_holds).
   The statements; each proof is `exact <lemma>` or a few lines from the lemmas of Proof/C07*.v. *)
From Coq Require Import String.
From TT Require Import Lib.Base Model.TextRepr Model.Assertions Spec.C07 Corr.C07
     Proof.C07Repr Proof.C07Names Proof.C07.

(* The model meets the whole statement, for every input.  For a text_repr case the model runs both formulations
   of text_repr - the literal transliteration text_repr_lit and the per-character text_repr_tok - and observes OBad
   if they differ; they never do (C07_lit_eq_tok).  Remaining gap (why PARTIAL): for IDesc the model's
   str()/describe()/get_details() are total by construction; what is checked is the implementation, by sampling.
   (A failed expectThat in a setUp that then raises fails the test: the model has the behaviour of /repo after
   889980a, finding F21, and the statement carries no hypothesis about it.) *)
Theorem C07_holds : forall i : input, wf i -> spec_okb i (model i) = true.
Proof.
  intros [isb s ml np|name modelled hm|p] W.
  - unfold model. rewrite (agree_always (IRepr isb s ml np)). simpl. unfold repr_okb. simpl.
    rewrite (tok_roundtrip isb (nonprint_of np) s ml W). simpl.
    rewrite (eqb_spec_refl _ (list_eqb_spec N.eqb N.eqb_eq)). destruct isb; reflexivity.
  - simpl in W. subst modelled. destruct hm; reflexivity.
  - apply test_meets_spec; assumption.
Qed.
Print Assumptions C07_holds.

Theorem C07_statement : forall i o, spec_okb i o = true -> Spec i o.
Proof. exact spec_okb_sound. Qed.
Print Assumptions C07_statement.

Theorem C07_obs_eqb : forall a b, obs_eqb a b = true <-> alpha a = alpha b.
Proof. exact obs_eqb_spec. Qed.
Print Assumptions C07_obs_eqb.

(* text_repr's output evaluates back to the original text: every str / bytes s, every multiline setting
   (None / True / False), every isprintable predicate; stated for the literal transliteration of compat.text_repr
   (split, repr of every line, slice, str.replace, join, the find / insert loop on fuel) *)
Theorem C07_text_repr_roundtrip : forall isb nonprint s ml,
  Forall (valid isb) s -> eval_lit (text_repr_lit isb nonprint s ml) = Some (isb, s).
Proof. intros isb nonprint s ml V. rewrite lit_eq_tok. apply tok_roundtrip. exact V. Qed.
Print Assumptions C07_text_repr_roundtrip.

(* the literal transliteration and the per-character formulation (a quote gets a backslash iff two more quotes
   follow immediately) are the same function: str.replace never matches across an escape boundary; the
   find / insert loop escapes the first k-2 quotes of every run of k >= 3 and stays within its fuel *)
Theorem C07_lit_eq_tok : forall isb nonprint s ml,
  text_repr_lit isb nonprint s ml = text_repr_tok isb nonprint s ml.
Proof. exact lit_eq_tok. Qed.
Print Assumptions C07_lit_eq_tok.

Theorem C07_agree : forall i, agree i = true.
Proof. exact agree_always. Qed.
Print Assumptions C07_agree.

(* the same round trip for the per-character formulation *)
Theorem C07_text_repr_tok_roundtrip : forall isb nonprint s ml,
  Forall (valid isb) s -> eval_lit (text_repr_tok isb nonprint s ml) = Some (isb, s).
Proof. exact tok_roundtrip. Qed.
Print Assumptions C07_text_repr_tok_roundtrip.

Theorem C07_repr_roundtrip : forall isb nonprint s,
  Forall (valid isb) s -> eval_lit (repr isb nonprint s) = Some (isb, s).
Proof. exact repr_roundtrip. Qed.
Print Assumptions C07_repr_roundtrip.

Theorem C07_text_repr_single_line : forall isb nonprint s ml,
  Forall (valid isb) s -> match ml with Some b => b | None => memN NL s end = false ->
  eval_lit (text_repr_lit isb nonprint s ml) = Some (isb, s).
Proof. exact (fun isb nonprint s ml V _ => C07_text_repr_roundtrip isb nonprint s ml V). Qed.
Print Assumptions C07_text_repr_single_line.

(* the unique-name loop of addDetailUniqueName terminates within its fuel (pigeonhole) with a name
   that is not in use and is the requested one or the requested one with a suffix *)
Theorem C07_unique_fresh : forall existing base,
  exists r, unique_name existing base = Some r /\ ~ In r existing /\ IsCand r base.
Proof. exact unique_fresh. Qed.
Print Assumptions C07_unique_fresh.

(* What the model does with a whole test, for every program: setUp, then - unless setUp raised - the test method
   and tearDown, then the cleanups last registered first, each function up to its first statement that raises;
   statement k raises exactly as exp_raised says; the outcome is reported after all of them and is that of the
   exception caught last, the forced failure of a mismatching expectThat being raised after everything else
   (model_outcome); the details are the old ones followed by fresh-named ones, one per request. *)
Theorem C07_run_test : forall p : prog, NoDup (map fst (p_pre p)) ->
  exists tail,
    run_test p = {| r_raised := map exp_raised (phases p); r_after_ran := true;
                    r_outcome := model_outcome p;
                    r_details := Some (p_pre p ++ tail)%list |}
    /\ Inv (p_pre p ++ flat_map requests_of_step (flat_map exec (phases p)))%list (p_pre p ++ tail)%list.
Proof. exact run_test_spec. Qed.
Print Assumptions C07_run_test.

(* ... and that outcome is one the statement allows *)
Theorem C07_outcome : forall p : prog, outcome_okb p (model_outcome p) = true.
Proof. exact model_outcome_ok. Qed.
Print Assumptions C07_outcome.

(* assertThat / assert_that raise exactly when match() returns a mismatch, expectThat never raises, a raise
   statement raises; nothing of the same function runs after a raise (any function of the test, any position) *)
Theorem C07_assert_iff : forall steps k b, nth_error (exp_raised steps) k = Some b ->
  exists s, nth_error steps k = Some s
            /\ b = match s_kind s with
                   | AssertThat | AssertThatFn => is_some (s_mis s)
                   | ExpectThat => false
                   | Raise _ => true
                   end
            /\ (b = true -> List.length (exp_raised steps) = S k).
Proof.
  induction steps as [|s r IH]; intros k b H; simpl in H; [destruct k; discriminate|].
  cbn [exp_raised]. fold (raises_step s). destruct (raises_step s) eqn:E.
  - destruct k as [|k]; simpl in H; [|destruct k; discriminate]. injection H as <-.
    exists s. simpl. auto.
  - destruct k as [|k]; simpl in H.
    + injection H as <-. exists s. simpl. repeat split; auto; discriminate.
    + destruct (IH k b H) as [s' [H1 [H2 H3]]]. exists s'. simpl.
      repeat split; auto; try (intro Hb; rewrite (H3 Hb); reflexivity).
Qed.
Print Assumptions C07_assert_iff.

(* expectThat: a mismatch makes the test a failure once it has finished, whatever else the test does before or
   afterwards - skip, expected failure, unexpected success, error, in setUp, the test method, tearDown or a
   cleanup, the expectThat itself standing in any of them that ran; and every function that has to run ran *)
Theorem C07_expect : forall p : prog, NoDup (map fst (p_pre p)) -> expect_failed p = true ->
  r_outcome (run_test p) = Failure /\ r_raised (run_test p) = map exp_raised (phases p).
Proof.
  intros p _ EF. destruct (run_test_outcome p) as [O R]. split; [|exact R].
  rewrite O. unfold model_outcome. rewrite EF. apply final_outcome_snoc.
Qed.
Print Assumptions C07_expect.

(* where super().setUp() / super().tearDown() stand among the statements of setUp / tearDown makes no difference:
   the base methods leave the details and force_failure alone (an expectThat before the upcall counts) *)
Theorem C07_upcall_anywhere : forall p u v,
  run_test {| p_pre := p_pre p; p_setup := p_setup p; p_setup_up := u; p_body := p_body p;
              p_teardown := p_teardown p; p_teardown_up := v; p_cleanups := p_cleanups p |} = run_test p.
Proof. exact upcall_anywhere. Qed.
Print Assumptions C07_upcall_anywhere.

(* ... and it never raises, wherever it stands *)
Theorem C07_expect_never_raises : forall steps k s b,
  nth_error steps k = Some s -> s_kind s = ExpectThat -> nth_error (exp_raised steps) k = Some b -> b = false.
Proof. exact expect_never_raises. Qed.
Print Assumptions C07_expect_never_raises.

(* a function of expectThat statements only: every statement runs, none raises *)
Theorem C07_expect_only : forall steps, existsb raises_step steps = false ->
  exp_raised steps = map (fun _ => false) steps /\ exec steps = steps.
Proof.
  induction steps as [|s r IH]; simpl; intro H; [auto|].
  apply orb_false_iff in H as [H1 H2]. rewrite H1. destruct (IH H2) as [-> ->]. auto.
Qed.
Print Assumptions C07_expect_only.

(* non-vacuity *)
Example C07_example :
  let np := fun c => N.eqb c 133 in
  (* a'''b with a newline and NEL: three quotes, the first escaped *)
  text_repr_tok false np [97; 39; 39; 39; 98; 10; 133]%N None
  = [39; 39; 39; 92; 10; 97; 92; 39; 39; 39; 98; 10; 92; 120; 56; 53; 39; 39; 39]%N
  /\ text_repr_lit false np [97; 39; 39; 39; 98; 10; 133]%N None
     = text_repr_tok false np [97; 39; 39; 39; 98; 10; 133]%N None
  /\ eval_lit (text_repr_lit false np [97; 39; 39; 39; 98; 10; 133]%N None) = Some (false, [97; 39; 39; 39; 98; 10; 133]%N)
  /\ r_details (run_test {| p_pre := [("a", 1)]%string; p_setup := []; p_setup_up := 0;
                            p_body := [{| s_kind := ExpectThat; s_mis := Some [("a", 2); ("a-1", 3)]%string |};
                                       {| s_kind := AssertThat; s_mis := Some [("a", 4)]%string |};
                                       {| s_kind := ExpectThat; s_mis := Some [("b", 5)]%string |}];
                            p_teardown := []; p_teardown_up := 0; p_cleanups := [] |})
     = Some [("a", 1); ("a-1", 2); ("a-1-1", 3); ("Failed expectation", 0); ("a-2", 4)]%string
  (* a failed expectation, then the test skips; a cleanup reaches an expected failure: still a failure *)
  /\ (let p := {| p_pre := []; p_setup := []; p_setup_up := 0;
                  p_body := [{| s_kind := ExpectThat; s_mis := Some [] |}; {| s_kind := Raise XSkip; s_mis := None |};
                             {| s_kind := AssertThat; s_mis := None |}];
                  p_teardown := [{| s_kind := AssertThat; s_mis := None |}]; p_teardown_up := 1;
                  p_cleanups := [[{| s_kind := Raise XXFail; s_mis := None |}]] |} in
      r_outcome (run_test p) = Failure /\ r_raised (run_test p) = [[]; [false; true]; [false]; [true]]
      /\ expect_failed p = true)
  (* the expectation fails in setUp, setUp then skips: the test method does not run, the test is a failure *)
  /\ (r_outcome (run_test witness_F21) = Failure /\ r_raised (run_test witness_F21) = [[false; true]]
      /\ expect_failed witness_F21 = true)
  (* the expectation fails in setUp before the upcall of the base setUp *)
  /\ r_outcome (run_test {| p_pre := []; p_setup := [{| s_kind := ExpectThat; s_mis := Some [] |}]; p_setup_up := 1;
                            p_body := []; p_teardown := []; p_teardown_up := 0; p_cleanups := [] |}) = Failure
  (* without the expectation the exception caught last decides *)
  /\ r_outcome (run_test {| p_pre := []; p_setup := []; p_setup_up := 0; p_body := [{| s_kind := Raise XSkip; s_mis := None |}];
                            p_teardown := []; p_teardown_up := 0; p_cleanups := [[{| s_kind := Raise XXFail; s_mis := None |}]] |}) = ExpFailure.
Proof. vm_compute. repeat split. Qed.
