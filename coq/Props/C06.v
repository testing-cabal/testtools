(* C06 - matcher verdicts obey their declared semantics compositionally.
   The statements; each proof is `exact <lemma>` or a few lines from the lemmas of Proof/C06*.v. *)
From Coq Require Import Permutation.
From TT Require Import Lib.Base Lib.ListFacts Model.Matchers Spec.C06 Corr.C06 Proof.C06Setwise Proof.C06Leaves Proof.C06.

(* The model meets the whole statement on every input outside the class that delimits finding F13:
   inside the domain, every construction of the expression (every set-iteration order) yields the
   documented verdict; Raises lets through exactly the non-Exception errors it did not match. *)
Theorem C06_holds : forall i : input, wf i -> finding_F13 i = false -> spec_okb i (model i) = true.
Proof.
  intros [m v acc runs] _ F. unfold spec_okb, model. simpl verdicts. simpl stable.
  destruct (idom _) eqn:D; [|reflexivity].
  rewrite map_length, Nat.eqb_refl, forallb_map. simpl. apply forallb_forall. intros r _.
  apply ov_eqb_eq, model_verdict; assumption.
Qed.
Print Assumptions C06_holds.

(* ... and without that guard the statement is false of the faithful model (known finding F13):
   MatchesSetwise(MatchesAny(Equals(1), Equals(2)), Equals(1)) on [1, 2] mismatches when the set
   yields the first matcher first, matches in the other order, although an assignment exists. *)
Theorem C06_refuted_F13 : exists i, wf i /\ idom i = true /\ spec_okb i (model i) = false.
Proof. exact (ex_intro _ f13_input (conj I (conj (proj1 refuted_F13) (proj2 (proj2 (proj2 (proj2 refuted_F13))))))). Qed.
Print Assumptions C06_refuted_F13.

Theorem C06_statement : forall i o, spec_okb i o = true -> Spec i o.
Proof.
  unfold spec_okb, Spec. intros i o H D. rewrite D in H.
  apply andb_true_iff in H as [H H3]. apply andb_true_iff in H as [H1 H2].
  split; [exact H1|]. split; [apply Nat.eqb_eq; exact H2|].
  apply Forall_forall. intros b Hb. apply ov_eqb_eq. apply (proj1 (forallb_forall _ _) H3 b Hb).
Qed.
Print Assumptions C06_statement.

Theorem C06_obs_eqb : forall a b, obs_eqb a b = true <-> a = b.
Proof.
  intros a b. unfold obs_eqb. rewrite andb_true_iff, (list_eqb_spec ov_eqb ov_eqb_eq), bool_eqb_spec.
  destruct a, b; simpl. split; [intros [-> ->]; reflexivity|intro H; injection H as -> ->; auto].
Qed.
Print Assumptions C06_obs_eqb.

(* For every matcher expression, every value in its domain, every semantics of the abstract leaves
   and every set-iteration order: match() returns None iff the documented predicate holds. *)
Theorem C06_truth_functional : forall leafsem rank m v,
  dom leafsem m v = true -> amb leafsem m v = false ->
  (match_ leafsem rank m v = None <-> sem leafsem m v = true).
Proof. exact tf_dom. Qed.
Print Assumptions C06_truth_functional.

(* a greedy success is a one-to-one assignment - no guard needed *)
Theorem C06_setwise_sound : forall leafsem rank s ms l,
  (forall m' x, In m' ms -> In x l -> (match_ leafsem rank m' x = None <-> sem leafsem m' x = true)) ->
  match_ leafsem rank (MatchesSetwise s ms) (VList l) = None ->
  exists ms', Permutation ms ms' /\ Forall2 (fun m x => sem leafsem m x = true) ms' l.
Proof. exact setwise_sound. Qed.
Print Assumptions C06_setwise_sound.

(* an assignment is found, whatever the iteration order, where no value is matched by two matchers *)
Theorem C06_setwise_complete : forall leafsem rank s ms l,
  dom leafsem (MatchesSetwise s ms) (VList l) = true -> amb leafsem (MatchesSetwise s ms) (VList l) = false ->
  (exists ms', Permutation ms ms' /\ Forall2 (fun m x => sem leafsem m x = true) ms' l) ->
  match_ leafsem rank (MatchesSetwise s ms) (VList l) = None.
Proof. exact setwise_complete. Qed.
Print Assumptions C06_setwise_complete.

(* the verdict does not depend on the set-iteration order *)
Theorem C06_pure : forall leafsem rank1 rank2 m v,
  dom leafsem m v = true -> amb leafsem m v = false ->
  (match_ leafsem rank1 m v = None <-> match_ leafsem rank2 m v = None).
Proof. exact pure. Qed.
Print Assumptions C06_pure.

(* Raises.match lets an exception out iff it is not an Exception and was not explicitly matched *)
Theorem C06_raises_rule : forall leafsem rank em c a c',
  run leafsem rank (Raises em) (VRaise c a) = OProp c' <->
  c' = c /\ is_user c = false /\
  match em with Some m' => match_ leafsem rank m' (VExc c a) <> None | None => True end.
Proof.
  intros leafsem rank em c a c'. simpl. rewrite raises_rule_prop.
  destruct em as [m'|]; simpl; split; intros (A & B & C); repeat split; auto. discriminate.
Qed.
Print Assumptions C06_raises_rule.

(* the documented predicate in readable form, combinator by combinator *)
Theorem C06_sem_clauses : forall ls,
  (forall m v, sem ls (Not m) v = negb (sem ls m v))
  /\ (forall fo ms v, sem ls (MatchesAll fo ms) v = true <-> Forall (fun m => sem ls m v = true) ms)
  /\ (forall ms v, sem ls (MatchesAny ms) v = true <-> Exists (fun m => sem ls m v = true) ms)
  /\ (forall m l, sem ls (AllMatch m) (VList l) = true <-> Forall (fun x => sem ls m x = true) l)
  /\ (forall m l, sem ls (AnyMatch m) (VList l) = true <-> Exists (fun x => sem ls m x = true) l)
  /\ (forall fo ms l, sem ls (MatchesListwise fo ms) (VList l) = true <-> Forall2 (fun m x => sem ls m x = true) ms l)
  /\ (forall s ms l, sem ls (MatchesSetwise s ms) (VList l) = true <->
                     exists ms', Permutation ms ms' /\ Forall2 (fun m x => sem ls m x = true) ms' l)
  /\ (forall kms obs, sem ls (MatchesDict kms) (VDict obs) = true <->
        (forall kv, In kv obs -> has_key (fst kv) kms = true) /\
        (forall km, In km kms -> exists x, lookup (fst km) obs = Some x /\ sem ls (snd km) x = true))
  /\ (forall kms obs, sem ls (ContainsDict kms) (VDict obs) = true <->
        (forall km, In km kms -> exists x, lookup (fst km) obs = Some x /\ sem ls (snd km) x = true))
  /\ (forall kms obs, sem ls (ContainedByDict kms) (VDict obs) = true <->
        (forall kv, In kv obs -> has_key (fst kv) kms = true) /\
        (forall km x, In km kms -> lookup (fst km) obs = Some x -> sem ls (snd km) x = true))
  /\ (forall ams i attrs, sem ls (MatchesStructure ams) (VRec i attrs) = true <->
        (forall am, In am ams -> exists x, getattr (fst am) attrs = Some x /\ sem ls (snd am) x = true))
  /\ (forall p a m v w, apply_pp p v = Some w -> sem ls (AfterPreprocessing p a m) v = sem ls m w)
  /\ (forall n m v, sem ls (Annotate n m) v = sem ls m v).
Proof.
  intro ls.
  refine (conj _ (conj _ (conj _ (conj _ (conj _ (conj _ (conj _ (conj _ (conj _ (conj _ (conj _ (conj _ _))))))))))));
    simpl.
  - reflexivity.
  - intros fo ms v. rewrite forallb_forall, Forall_forall. reflexivity.
  - intros ms v. rewrite existsb_exists, Exists_exists. reflexivity.
  - intros m l. rewrite forallb_forall, Forall_forall. reflexivity.
  - intros m l. rewrite existsb_exists, Exists_exists. reflexivity.
  - intros fo ms l. apply forall2b_Forall2.
  - intros s ms l. apply (assign_matrix (sem ls)).
  - intros kms obs. rewrite andb_true_iff, forallb_forall, (forallb_lookup_some (fun k => lookup k obs)). reflexivity.
  - intros kms obs. apply (forallb_lookup_some (fun k => lookup k obs)).
  - intros kms obs. rewrite andb_true_iff, forallb_forall, (forallb_lookup_all (fun k => lookup k obs)). reflexivity.
  - intros ams i attrs. apply (forallb_lookup_some (fun a => getattr a attrs)).
  - intros p a m v w ->. reflexivity.
  - reflexivity.
Qed.
Print Assumptions C06_sem_clauses.

(* the two leaves whose code differs from their documented predicate *)
Theorem C06_leaf_code :
  (forall l e, forallb scalar (e ++ l) = true ->
     (is_nil (list_subtract e l) && is_nil (list_subtract l e) = true <-> same_members l e = true))
  /\ (forall a b, list_eqb key_eqb (Sort.isort key_leb a) (Sort.isort key_leb b) = true <-> same_keys a b = true).
Proof. exact (conj same_members_code same_keys_code). Qed.
Print Assumptions C06_leaf_code.

(* == on scalars, which the leaf semantics and SameMembers rest on, is an equivalence that identifies 1, True
   and 1.0 (0, False and 0.0) and never a number with None, '', b'', [] or {} *)
Theorem C06_scalar_eq :
  (forall x, scalar x = true -> veq x x = true)
  /\ (forall x y, scalar x = true -> veq x y = veq y x)
  /\ (forall x y z, scalar x = true -> scalar y = true -> veq x y = true -> veq y z = true -> veq x z = true)
  /\ (forall z b h, veq (VInt z) (VBool b) = Z.eqb z (if b then 1 else 0)
                    /\ veq (VInt z) (VFloat h) = Z.eqb (2 * z) h
                    /\ veq (VBool b) (VFloat h) = Z.eqb (if b then 2 else 0) h)
  /\ (forall x, num2 x <> None -> veq x VNone = false /\ veq x (VStr []) = false /\ veq x (VBytes []) = false
                                   /\ veq x (VList []) = false /\ veq x (VDict []) = false).
Proof. exact (conj veq_refl_scalar (conj veq_sym_scalar (conj veq_trans_scalar (conj veq_numbers veq_number_other)))). Qed.
Print Assumptions C06_scalar_eq.

(* non-vacuity: a depth-3 expression with an abstract leaf, a set, a dict and a first_only list *)
Example C06_example :
  let ls := leafsem_of [[sn [97; 98]]] in
  let m := MatchesAll false
             [ContainsDict [(KStr (sn [97]), MatchesSetwise 0 [Leaf 0; Not (Leaf 0)])];
              Not (MatchesDict [(KStr (sn [97]), Always)]);
              AfterPreprocessing 6 true (MatchesListwise true [AllMatch (IsInstance [TStr]); Equals (VInt 1)])] in
  let v := VDict [(KStr (sn [97]), VList [VStr (sn [99]); VStr (sn [97; 98])]); (KStr (sn [98]), VInt 1)] in
  dom ls m v = true /\ amb ls m v = false /\ sem ls m v = true
  /\ match_ ls (fun _ i => i) m v = None /\ match_ ls (fun _ i => 1 - i) m v = None
  /\ match_ ls (fun _ i => i) (Not m) v = Some MUnexp.
Proof. vm_compute. repeat split. Qed.

(* non-vacuity for falsy and cross-type values: the key 1 named as True, the value 1.0 == True; a surplus key
   mismatches although what it holds is False / 0.0 / None / []; an empty list fails AnyMatch under a dict key *)
Example C06_example_falsy :
  let ls := leafsem_of [] in
  let rk := fun (_ i : nat) => i in
  let m := MatchesDict [(KInt 1, Equals (VBool true))] in
  let n := ContainedByDict [(KInt 1, AnyMatch Always)] in
  key_of (VBool true) = Some (KInt 1) /\ key_of (VFloat 2) = Some (KInt 1)
  /\ dom ls m (VDict [(KInt 1, VFloat 2)]) = true /\ match_ ls rk m (VDict [(KInt 1, VFloat 2)]) = None
  /\ Forall (fun x => dom ls m (VDict [(KInt 1, VInt 1); (KInt 0, x)]) = true
                      /\ sem ls m (VDict [(KInt 1, VInt 1); (KInt 0, x)]) = false
                      /\ match_ ls rk m (VDict [(KInt 1, VInt 1); (KInt 0, x)]) <> None)
            [VBool false; VFloat 0; VInt 0; VNone; VStr []; VBytes []; VList []; VDict []]
  /\ sem ls n (VDict [(KInt 1, VList [])]) = false /\ match_ ls rk n (VDict [(KInt 1, VList [])]) <> None
  /\ sem ls n (VDict []) = true /\ match_ ls rk n (VDict []) = None.
Proof. vm_compute. repeat split; try discriminate; repeat constructor; try discriminate. Qed.
