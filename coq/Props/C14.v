(* C14 - Deferred-returning tests succeed iff all completed cleanly; reactor left clean (PARTIAL:
   the reactor, Twisted's Deferred sequencing, GC of Deferreds and the log publisher are MODELLED
   (Model/AsyncRun.v), tied to the code by the correspondence check over a virtual-time reactor).
   The statements; each proof is `exact <lemma>` or a few lines from the lemmas of Proof/C14.v.
   All theorems quantify over every program: any stage behaviours, any number of cleanups, any delays relative to the
   timeout, any interrupt instant, both variants, all logging options, any number of observers. *)
From TT Require Import Lib.Base Model.Reactor Model.AsyncRun Spec.C14 Corr.C14 Gen.Spinnertabs Proof.C14.

(* The model meets the whole statement, for every program of the input type (wf is trivially true: ties at
   the cut instant, both reactor disciplines and the obligatory iterations are modelled). *)
Theorem C14_holds : forall i : input, wf i -> spec_okb i (model i) = true.
Proof. intros i _. apply model_meets_spec. Qed.
Print Assumptions C14_holds.

Theorem C14_holds_all : forall i : input, spec_okb i (model i) = true.
Proof. exact model_meets_spec. Qed.
Print Assumptions C14_holds_all.

(* the executable statement is the readable one *)
Theorem C14_statement : forall i o, spec_okb i o = true <-> Spec i o.
Proof. exact spec_okb_iff. Qed.
Print Assumptions C14_statement.

(* the correspondence compares exactly what the statement pins down: everything observed except what
   propagates out of run() (C01's clause) and the number of cleanups still registered (see Corr.C14.alpha) *)
Theorem C14_obs_eqb : forall a b, obs_eqb a b = true <-> alpha a = alpha b.
Proof.
  intros a b. destruct a, b; unfold obs_eqb, alpha; simpl. split.
  - intro H.
    apply andb_prop in H as [H H6]. apply andb_prop in H as [H H5]. apply andb_prop in H as [H H4].
    apply andb_prop in H as [H H3]. apply andb_prop in H as [H1 H2].
    apply (list_eqb_spec ev_eqb ev_eqb_spec) in H1. apply eqb_prop in H2. apply log_eqb_spec in H3.
    apply Nat.eqb_eq in H4, H5. apply eqb_prop in H6.
    subst. reflexivity.
  - intro E. injection E as -> -> -> -> -> ->.
    rewrite (eqb_spec_refl _ (list_eqb_spec ev_eqb ev_eqb_spec)), (eqb_spec_refl _ log_eqb_spec), !Nat.eqb_refl, !eqb_reflx.
    reflexivity.
Qed.
Print Assumptions C14_obs_eqb.

(* clause 1, for the model: the stage log is a walk along the plan (Spec.C14.Walk): each logged stage
   started at the instant its predecessor completed; the walk goes on after a stage that completed before
   the cut, stops at one due after it or never, and may go either way at one due exactly at the cut *)
Theorem C14_walk : forall p, Walk (cut_instant p) 0 (plan p) (o_log (model p)).
Proof. exact model_log. Qed.
Print Assumptions C14_walk.

Theorem C14_walk_checker : forall C pl t log, log_okb C t pl log = true <-> Walk C t pl log.
Proof. exact log_okb_walk. Qed.
Print Assumptions C14_walk_checker.

(* ... in words: the stages that ran are an initial segment of the plan; the first starts at 0; each further
   one starts at exactly the instant at which its predecessor completed - at once, or when the chain of the
   Deferred it returned was over, not after the cut instant *)
Theorem C14_sequencing : forall p,
  (exists rest, map fst (plan p) = map fst (o_log (model p)) ++ rest)
  /\ (forall k u l, o_log (model p) = (k, u) :: l -> k = id_setup /\ u = 0)
  /\ (forall l1 k1 t1 k2 t2 l2, o_log (model p) = l1 ++ (k1, t1) :: (k2, t2) :: l2 ->
      exists st1, In (k1, st1) (plan p)
                  /\ ((completes t1 st1 = Immediately /\ t2 = t1)
                      \/ (completes t1 st1 = At t2 /\ t2 <= cut_instant p))).
Proof.
  intro p. destruct (walk_words _ _ _ _ (model_log p)) as (Hpre & Hfirst & Hadj).
  split; [exact Hpre|]. split; [|exact Hadj].
  intros k u l E. destruct (Hfirst k u l E) as (-> & st & r & Ep).
  split; [|reflexivity]. unfold plan in Ep. inversion Ep. reflexivity.
Qed.
Print Assumptions C14_sequencing.

(* a stage that hands over an ALREADY FIRED Deferred whose chain is paused on an inner one (RChained) is over
   exactly when a stage returning the unfired inner Deferred (RLater) would be: d ticks after it started *)
Theorem C14_chained : forall t st,
  (forall d f, s_ret st = RLater d f \/ s_ret st = RChained d f -> completes t st = At (t + d))
  /\ (s_ret st = RNever -> completes t st = NeverC)
  /\ (completes t st = Immediately ->
      s_ret st = RReturn \/ (exists c, s_ret st = RRaise c) \/ (exists f, s_ret st = RFired f)).
Proof.
  intros t st. unfold completes. split; [|split].
  - intros d f [E|E]; rewrite E; reflexivity.
  - intros ->. reflexivity.
  - destruct (s_ret st); try discriminate; eauto.
Qed.
Print Assumptions C14_chained.

(* ... where the plan is setUp, test and tearDown (unless setUp failed), then the cleanups LAST REGISTERED
   FIRST; and when nothing cut the run short every one of them ran and none stays registered *)
Theorem C14_lifo : forall p,
  map fst (plan p) =
    id_setup :: (if stage_raises (i_setup p) then [] else [id_body; id_teardown])
    ++ rev (map id_cleanup (seq 0 (length (i_cleanups p))))
  /\ (completed p = true ->
      o_cleanups_left (model p) = 0 /\ map fst (o_log (model p)) = map fst (plan p)).
Proof. exact (fun p => conj (plan_ids p) (cleanups_all_run p)). Qed.
Print Assumptions C14_lifo.

(* a Deferred-returning stage counts as completed within the timeout only strictly before the cut *)
Theorem C14_fires : forall C t st t',
  fires_at C t st = Some t' ->
  t <= t' /\ (forall d f, s_ret st = RLater d f \/ s_ret st = RChained d f -> t' = t + d /\ t' < C).
Proof.
  intros C t st t'. unfold fires_at. rewrite completes_of. intro H.
  assert (Hd : forall d f, s_ret st = RLater d f \/ s_ret st = RChained d f -> completion_of (s_ret st) = After d f)
    by (intros d f [E|E]; rewrite E; reflexivity).
  destruct (completion_of (s_ret st)) as [f0|d0 f0|].
  - injection H as <-. split; [apply Nat.le_refl|]. intros d f E. discriminate (Hd d f E).
  - destruct (Nat.ltb (t + d0) C) eqn:L; [|discriminate]. apply Nat.ltb_lt in L. injection H as <-.
    split; [apply Nat.le_add_r|]. intros d f E. apply Hd in E. injection E as <- _. split; [reflexivity | exact L].
  - discriminate.
Qed.
Print Assumptions C14_fires.

(* ... so a Deferred due exactly AT the cut instant has lost, whatever the reactor still runs afterwards *)
Theorem C14_tie_loses : forall p pl1 L tk k st r,
  plan p = pl1 ++ (k, st) :: r -> Go (cut_instant p) 0 pl1 L tk -> completes tk st = At (cut_instant p) ->
  completed p = false.
Proof. exact tie_loses. Qed.
Print Assumptions C14_tie_loses.

Theorem C14_one_outcome : forall p,
  exists x, o_events (model p) = [StartTest; x; StopTest] /\ In x [AddSuccess; AddError; AddFailure; AddSkip].
Proof. exact one_outcome_holds. Qed.
Print Assumptions C14_one_outcome.

(* success iff every planned stage fired before the cut, none raised / failed / logged an error / dropped
   a failed Deferred / started a poller, and no leftover delayed call was still scheduled at the end *)
Theorem C14_success_iff : forall p,
  In AddSuccess (o_events (model p))
  <-> completed p = true /\ all_clean p = true /\ o_unrun (model p) = 0.
Proof. exact success_iff. Qed.
Print Assumptions C14_success_iff.

(* for programs that leave no delayed call behind, the verdict is decided by the program and the timing alone *)
Theorem C14_success_iff_no_leftovers : forall p,
  no_leftovers p ->
  (In AddSuccess (o_events (model p)) <-> completed p = true /\ all_clean p = true).
Proof. exact success_iff_no_leftovers. Qed.
Print Assumptions C14_success_iff_no_leftovers.

(* timeout or interrupt: an error; result.stop() exactly for an interrupt *)
Theorem C14_cut_is_error : forall p,
  completed p = false ->
  o_events (model p) = [StartTest; AddError; StopTest]
  /\ (o_stop (model p) = true <-> cut_kind p = KInterrupt).
Proof. exact cut_is_error. Qed.
Print Assumptions C14_cut_is_error.

Theorem C14_no_stop_otherwise : forall p, completed p = true -> o_stop (model p) = false.
Proof. intros p Ct. destruct (model_verdict p) as (c & _ & _ & ->). rewrite Ct. reflexivity. Qed.
Print Assumptions C14_no_stop_otherwise.

(* after every run the reactor holds no delayed call and the observers are those installed before *)
Theorem C14_clean : forall p, o_pending (model p) = 0 /\ o_observers_same (model p) = true.
Proof. intro p. split; [apply model_pending | apply model_observers]. Qed.
Print Assumptions C14_clean.

(* ... because Spinner._clean cancels every call of a fresh getDelayedCalls() list: whatever the queue *)
Theorem C14_spinner_clean : forall q : list (dcall bool), spinner_clean q = [].
Proof. exact spinner_clean_nil. Qed.
Print Assumptions C14_spinner_clean.

(* ... and the fixtures' cleanups undo, in reverse, what their set-ups did: any number of observers, every
   combination of suppress_twisted_logging / store_twisted_logs *)
Theorem C14_observers : forall p, observers_after p = initial_observers p.
Proof. exact observers_restored. Qed.
Print Assumptions C14_observers.

(* table obligations (coq/Gen/Spinnertabs.v is printed from the imported code on every run) *)
Theorem C14_tab_iterations :
  runner_iterations = spinner_iterations /\ runner_iterations <= broken_runner_iterations.
Proof. exact (conj tab_plain_is_spinner_default tab_iterations_le). Qed.
Print Assumptions C14_tab_iterations.

(* the ForBrokenTwisted variant never leaves more leftover calls than the plain one in the same situation *)
Theorem C14_variants : forall m,
  incl (m_pending (settle broken_runner_iterations m)) (m_pending (settle runner_iterations m)).
Proof.
  intro m. pose proof tab_iterations_le as T.
  destruct broken_runner_iterations, runner_iterations; cbn [settle]; try apply incl_refl.
  - lia.
  - intros x Hx. cbn [advance m_pending] in Hx. apply filter_In in Hx. tauto.
Qed.
Print Assumptions C14_variants.

(* non-vacuity: a failing asynchronous body, an asynchronous tearDown, two cleanups of which the first
   registered raises KeyboardInterrupt (the F11 shape): everything runs, in order, error reported; the same
   program cut by a timeout of 3; a clean asynchronous test that succeeds; a leftover delayed call; a cleanup
   that hands over a fired-but-paused Deferred is waited for; a test whose Deferred is due exactly at the
   timeout: error - on a batch reactor the stages behind it still run (at instant 9), the verdict stands *)
Example C14_example :
  let st r := mkStage r [] false false false in
  let p T := mkProgram false false true true 1 T None (st RReturn) (st (RLater 2 (Some CFail))) (st (RLater 2 None))
                       [st (RRaise CKbd); st (RLater 1 None)] in
  let tie batch := mkProgram false batch true true 0 9 None (st RReturn) (st (RLater 9 None)) (st RReturn)
                             [st (RFired None)] in
  wf (p 9)
  /\ o_log (model (p 9)) = [(0, 0); (1, 0); (2, 2); (11, 4); (10, 5)]
  /\ o_events (model (p 9)) = [StartTest; AddError; StopTest]
  /\ o_raised (model (p 9)) = Some CKbd /\ o_cleanups_left (model (p 9)) = 0
  /\ o_log (model (p 3)) = [(0, 0); (1, 0); (2, 2)]
  /\ o_events (model (p 3)) = [StartTest; AddError; StopTest] /\ o_cleanups_left (model (p 3)) = 2
  /\ o_events (model (mkProgram true false false false 0 9 (Some 20) (st RReturn) (st (RLater 8 None)) (st RReturn)
                         [st (RLater 0 None)])) = [StartTest; AddSuccess; StopTest]
  /\ o_events (model (mkProgram false false true true 0 9 None (st RReturn) (mkStage RReturn [3] false false false)
                         (st RReturn) [])) = [StartTest; AddError; StopTest]
  /\ (let q := mkProgram false true true true 0 9 None (st RReturn) (st RReturn) (st RReturn)
                         [st RReturn; st (RChained 2 None)] in
      o_log (model q) = [(0, 0); (1, 0); (2, 0); (11, 0); (10, 2)]
      /\ o_events (model q) = [StartTest; AddSuccess; StopTest])
  /\ o_log (model (tie false)) = [(0, 0); (1, 0)] /\ o_events (model (tie false)) = [StartTest; AddError; StopTest]
  /\ o_log (model (tie true)) = [(0, 0); (1, 0); (2, 9); (10, 9)]
  /\ o_events (model (tie true)) = [StartTest; AddError; StopTest] /\ completed (tie true) = false.
Proof. vm_compute. repeat split. Qed.
